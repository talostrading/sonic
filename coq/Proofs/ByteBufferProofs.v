(* C09: the ByteBuffer model refines the three-FIFO specification, for every operation and every integer argument.
   Every state satisfying binv is a normal form nf a b c (normal_form); each operation is computed on normal forms and
   its refinement concluded by refines_eq or one of its corollaries. *)
From Sonic Require Import Base.Prelude Base.ListLemmas Model.ByteBuffer Spec.ThreeFifo.
Local Open Scope Z_scope.
(* unfolded last in conversion: otherwise the Qed of ref_shrinkto evaluates wrap64 at 64-bit numerals where two terms
   differ elsewhere *)
Local Strategy 1000 [wrap64 two63].

Definition binv (s : bb) : Prop :=
  0 <= si s <= ri s /\ ri s <= wi s /\ wi s = zlen (bmem s) /\ wi s <= bcap s /\ bcap s < two63.

Definition abs (s : bb) : tf := mktf (saved_of s) (readable_of s) (pending_of s) (bcap s - wi s).

Definition env_ok (s : bb) (o : bbop) : Prop :=
  match o with
  | OReserve n newcap => - two63 <= n - (bcap s - wi s) < two63 /\ Z.max (bcap s) (wi s + n) <= newcap < two63
  | OWrite w newcap => wi s + zlen w <= newcap < two63
  | OClaim w n | OClaimFixed n w => is_int64 n /\ (0 <= n <= bcap s - wi s -> n <= zlen w)
  | OReadFrom _ n _ | OAsyncWriteTo n _ | OCommit n | OConsume n | OSave n
  | OShrinkBy n | OShrinkTo n | OPrepareRead n | ORead n => is_int64 n
  | OSavedSlot i l | ODiscard i l => is_int64 i /\ is_int64 l
  | _ => True
  end.

Lemma wrap64_id z : - two63 <= z < two63 -> wrap64 z = z.
Proof. intros H. unfold wrap64. rewrite Z.mod_small by (unfold two63 in *; lia). lia. Qed.

Lemma wrap64_over z : two63 <= z < 3 * two63 -> wrap64 z = z - 2 * two63.
Proof.
  intros H. unfold wrap64. replace (z + two63) with (z - two63 + 1 * (2 * two63)) by lia.
  rewrite Z.mod_add, Z.mod_small by (unfold two63 in *; lia). lia.
Qed.

Lemma wrap64_under z : - 3 * two63 <= z < - two63 -> wrap64 z = z + 2 * two63.
Proof.
  intros H. unfold wrap64. replace (z + two63) with (z + 3 * two63 + -1 * (2 * two63)) by lia.
  rewrite Z.mod_add, Z.mod_small by (unfold two63 in *; lia). lia.
Qed.

Lemma regions s : binv s ->
  bmem s = saved_of s ++ readable_of s ++ pending_of s /\
  zlen (saved_of s) = si s /\ zlen (readable_of s) = ri s - si s /\ zlen (pending_of s) = wi s - ri s.
Proof.
  unfold binv, saved_of, readable_of, pending_of. intros (H1 & H2 & H3 & H4 & H5).
  split; [|rewrite !zlen_zsub; lia].
  rewrite <- (zsub_split (si s) (wi s) (ri s)) by lia.
  rewrite <- (zsub_split 0 (wi s) (si s)) by lia.
  symmetry. apply zsub_full. exact H3.
Qed.

Lemma abs_eq a b c s :
  bmem s = a ++ b ++ c -> si s = zlen a -> ri s = zlen a + zlen b -> wi s = zlen a + zlen b + zlen c ->
  wi s <= bcap s -> bcap s < two63 ->
  binv s /\ abs s = mktf a b c (bcap s - wi s).
Proof.
  intros Hm H1 H2 H3 H4 H5. destruct s as [i r w cp m ob]; cbn in *. subst.
  pose proof (zlen_nonneg a). pose proof (zlen_nonneg b). pose proof (zlen_nonneg c).
  destruct (zsub_app3 a b c) as (E1 & E2 & E3). split.
  - unfold binv; cbn. rewrite !zlen_app. lia.
  - unfold abs, saved_of, readable_of, pending_of; cbn. rewrite E1, E2, E3. reflexivity.
Qed.

Lemma list_eqb_refl l : list_eqb l l = true.
Proof.
  unfold list_eqb. rewrite Nat.eqb_refl. cbn.
  induction l as [|x l IH]; cbn; [reflexivity|]. rewrite Z.eqb_refl. exact IH.
Qed.

(* the way byte_buffer.go clamps a positive count *)
Lemma clamp_pos n len : 0 < n -> 0 <= len -> (if n >? len then len else n) = clamp n 0 len.
Proof. intros Hn Hl. unfold clamp. destruct (n >? len) eqn:E; lia. Qed.

Definition nf (a b c : list Z) (cap ob : Z) : bb :=
  mkbb (zlen a) (zlen a + zlen b) (zlen a + zlen b + zlen c) cap (a ++ b ++ c) ob.

Lemma normal_form s : binv s ->
  exists a b c, s = nf a b c (bcap s) (oneb s) /\ zlen a + zlen b + zlen c <= bcap s /\ bcap s < two63.
Proof.
  intros Hi. destruct (regions s Hi) as (Hm & Ha & Hb & Hc).
  exists (saved_of s), (readable_of s), (pending_of s).
  unfold binv in Hi. destruct s as [i r w cp m ob]; cbn in *.
  unfold nf. rewrite Ha, Hb, Hc. rewrite <- Hm.
  split; [f_equal; lia|lia].
Qed.

Lemma readLen_nf a b c cap ob : readLen (nf a b c cap ob) = zlen b.
Proof. unfold readLen, nf; cbn [si ri]. lia. Qed.

Lemma writeLen_nf a b c cap ob : writeLen (nf a b c cap ob) = zlen c.
Proof. unfold writeLen, nf; cbn [wi ri]. lia. Qed.

(* Prelude.zlen_zdrop again; used by no proof *)
Lemma zlen_zdrop' {A} k (l : list A) : 0 <= k <= zlen l -> zlen (zdrop k l) = zlen l - k.
Proof. apply zlen_zdrop. Qed.

#[local] Hint Rewrite @zlen_app @zlen_nil : zlen.
#[local] Hint Rewrite @zlen_ztake @zlen_zdrop using lia : zlen.

Lemma consume_nf a b c cap ob n :
  let k := clamp n 0 (zlen b) in
  consume (nf a b c cap ob) n = nf a (zdrop k b) c cap ob.
Proof.
  intros k. pose proof (zlen_nonneg b).
  assert (Hk : 0 <= k <= zlen b) by (unfold k, clamp; lia).
  unfold consume, readLen, nf, setmem, remove_range; cbn [si ri wi bcap bmem oneb].
  replace (zlen a + zlen b - zlen a) with (zlen b) by lia.
  destruct (n <=? 0) eqn:E0.
  - replace k with 0 by (unfold k, clamp; lia). rewrite zdrop_nonpos by lia. reflexivity.
  - rewrite clamp_pos by lia. fold k. destruct (k >? 0) eqn:E1.
    + rewrite ztake_app_exact, zdrop_app_plus, zdrop_app_l by lia. autorewrite with zlen. f_equal; lia.
    + replace k with 0 by lia. rewrite zdrop_nonpos by lia. reflexivity.
Qed.

Lemma commit_nf a b c cap ob n :
  let k := clamp n 0 (zlen c) in
  commit (nf a b c cap ob) n = nf a (b ++ ztake k c) (zdrop k c) cap ob.
Proof.
  intros k. pose proof (zlen_nonneg c).
  assert (Hk : 0 <= k <= zlen c) by (unfold k, clamp; lia).
  unfold commit, nf, setmem; cbn [si ri wi bcap bmem oneb].
  replace (zlen a + zlen b + zlen c - (zlen a + zlen b)) with (zlen c) by lia.
  destruct (n <=? 0) eqn:E0.
  - replace k with 0 by (unfold k, clamp; lia). rewrite ztake_nonpos, zdrop_nonpos, app_nil_r by lia. reflexivity.
  - rewrite clamp_pos by lia. fold k. autorewrite with zlen. rewrite <- app_assoc, ztake_zdrop_split. f_equal; lia.
Qed.

Lemma shrinkBy_nf a b c cap ob n :
  let k := clamp n 0 (zlen c) in
  shrinkBy (nf a b c cap ob) n = (nf a b (ztake (zlen c - k) c) cap ob, k).
Proof.
  intros k. pose proof (zlen_nonneg c).
  assert (Hk : 0 <= k <= zlen c) by (unfold k, clamp; lia).
  unfold shrinkBy, writeLen, nf, setmem; cbn [si ri wi bcap bmem oneb].
  replace (zlen a + zlen b + zlen c - (zlen a + zlen b)) with (zlen c) by lia.
  destruct (n <=? 0) eqn:E0.
  - replace k with 0 by (unfold k, clamp; lia). rewrite Z.sub_0_r, ztake_all by lia. reflexivity.
  - rewrite clamp_pos by lia. fold k. rewrite ztake_app3 by lia. autorewrite with zlen. f_equal. f_equal; lia.
Qed.

Definition refines_at (s : bb) (o : bbop) : Prop :=
  forall s' r, bbstep s o = Ok (s', r) ->
    binv s' /\ exists t' want, tfstep (abs s) o (bcap s' - wi s') = (t', want) /\ abs s' = t' /\ ret_ok want r = true.

(* the conclusion of [refines_at s o] at a given s' and r; refines_eq and its corollaries are stated with it *)
Definition refined (s s' : bb) (o : bbop) (r : bbret) : Prop :=
  binv s' /\ exists t' want, tfstep (abs s) o (bcap s' - wi s') = (t', want) /\ abs s' = t' /\ ret_ok want r = true.

Section Ops.
Variables (a b c : list Z) (cap ob : Z).
Hypothesis Hcap : zlen a + zlen b + zlen c <= cap.
Hypothesis Hc63 : cap < two63.
Let s := nf a b c cap ob.
Ltac lens := pose proof (zlen_nonneg a); pose proof (zlen_nonneg b); pose proof (zlen_nonneg c).

(* s' splits into a', b', c' with the new indices at the seams (abs_eq), and the specification steps from (a, b, c) to
   the same three lists with the room that is left *)
Lemma refines_eq o s' r a' b' c' want :
  bmem s' = a' ++ b' ++ c' -> si s' = zlen a' -> ri s' = zlen a' + zlen b' -> wi s' = zlen a' + zlen b' + zlen c' ->
  wi s' <= bcap s' -> bcap s' < two63 ->
  tfstep (mktf a b c (cap - (zlen a + zlen b + zlen c))) o (bcap s' - wi s') = (mktf a' b' c' (bcap s' - wi s'), want) ->
  ret_ok want r = true ->
  refined s s' o r.
Proof.
  intros Hm H1 H2 H3 Hfit H63 Ht Hr. unfold refined.
  destruct (abs_eq a' b' c' s' Hm H1 H2 H3 Hfit H63) as [Hi Hab].
  destruct (abs_eq a b c s eq_refl eq_refl eq_refl eq_refl Hcap Hc63) as [_ Ha]. rewrite Ha.
  split; [exact Hi|]. exists (abs s'), want. rewrite Hab. auto.
Qed.
Arguments refines_eq {o s' r} a' b' c' {want}.

Lemma refines_nf o s' r a' b' c' cap' ob' want :
  s' = nf a' b' c' cap' ob' ->
  zlen a' + zlen b' + zlen c' <= cap' -> cap' < two63 ->
  (let room' := cap' - (zlen a' + zlen b' + zlen c') in
   tfstep (mktf a b c (cap - (zlen a + zlen b + zlen c))) o room' = (mktf a' b' c' room', want)) ->
  ret_ok want r = true ->
  refined s s' o r.
Proof. intros -> Hfit H63 Ht Hr. apply (refines_eq a' b' c' (want := want)); auto. Qed.
Arguments refines_nf {o s' r} a' b' c' cap' ob' {want}.

Lemma refines_same o r want :
  tfstep (mktf a b c (cap - (zlen a + zlen b + zlen c))) o (cap - (zlen a + zlen b + zlen c))
    = (mktf a b c (cap - (zlen a + zlen b + zlen c)), want) ->
  ret_ok want r = true ->
  refined s s o r.
Proof. intros Ht Hr. eapply refines_nf; [reflexivity|exact Hcap|exact Hc63|exact Ht|exact Hr]. Qed.
Arguments refines_same {o r want}.

Lemma ref_commit n : refines_at s (OCommit n).
Proof.
  intros s' r [= <- <-]. unfold s. rewrite commit_nf.
  lens. assert (0 <= clamp n 0 (zlen c) <= zlen c) by (unfold clamp; lia).
  eapply refines_nf; [reflexivity|autorewrite with zlen; lia|assumption| |].
  - cbn [tfstep t_saved t_read t_pend t_room]. autorewrite with zlen. f_equal. f_equal. lia.
  - reflexivity.
Qed.

Lemma ref_observe : refines_at s OObserve.
Proof. intros s' r [= <- <-]. eapply refines_same; reflexivity. Qed.

Lemma ref_reserve n newcap : env_ok s (OReserve n newcap) -> refines_at s (OReserve n newcap).
Proof.
  intros He s' r. cbn [bbstep env_ok] in *. unfold s, nf in *; cbn [si ri wi bcap bmem oneb] in *.
  lens. rewrite wrap64_id by lia.
  destruct (_ >? 0) eqn:E; intros [= <- <-].
  - eapply (refines_nf a b c newcap ob); [reflexivity|lia|lia| |].
    + cbn [tfstep t_saved t_read t_pend t_room]. replace (n >? _) with true by lia. reflexivity.
    + reflexivity.
  - eapply refines_same.
    + cbn [tfstep t_saved t_read t_pend t_room]. replace (n >? _) with false by lia. reflexivity.
    + reflexivity.
Qed.

Lemma ref_save n : refines_at s (OSave n).
Proof.
  intros s' r. cbn [bbstep]. unfold s, nf, readLen, setmem; cbn [si ri wi bcap bmem oneb].
  lens.
  replace (zlen a + zlen b - zlen a) with (zlen b) by lia.
  set (k := clamp n 0 (zlen b)). assert (Hk : 0 <= k <= zlen b) by (unfold k, clamp; lia).
  assert (Hn : Z.max 0 (if n >? zlen b then zlen b else n) = k) by (unfold k, clamp; destruct (n >? zlen b) eqn:?; lia).
  destruct (_ <=? 0) eqn:E; intros [= <- <-].
  - eapply refines_same.
    + cbn [tfstep t_saved t_read t_pend t_room]. fold k. replace k with 0 by lia.
      rewrite ztake_nonpos, zdrop_nonpos, app_nil_r by lia. reflexivity.
    + reflexivity.
  - replace (if n >? zlen b then zlen b else n) with k by lia.
    eapply (refines_eq (a ++ ztake k b) (zdrop k b) c); cbn [si ri wi bcap bmem]; autorewrite with zlen; try lia.
    + rewrite <- app_assoc, (app_assoc (ztake k b)), ztake_zdrop_split. reflexivity.
    + cbn [tfstep t_saved t_read t_pend t_room]. fold k. replace (0 <? k) with true by lia. reflexivity.
    + cbn. rewrite !Z.eqb_refl. reflexivity.
Qed.

Lemma ref_savedslot i l : refines_at s (OSavedSlot i l).
Proof.
  intros s' r. cbn [bbstep]. unfold valid_slot, s, nf; cbn [si ri wi bcap bmem oneb].
  lens.
  destruct (_ && _) eqn:E; intros [= <- <-]; (eapply refines_same; [reflexivity|]); unfold tvalid; cbn [t_saved].
  - replace (_ && _) with true by lia. cbn [ret_ok]. rewrite zsub_app_l by lia. apply list_eqb_refl.
  - replace (_ && _) with false by lia. reflexivity.
Qed.

Lemma remove_range_saved i l :
  0 <= l -> i + l <= zlen a ->
  remove_range (a ++ b ++ c) i l = (ztake i a ++ zdrop (i + l) a) ++ b ++ c.
Proof.
  intros H2 H3. unfold remove_range. rewrite ztake_app_l by lia. rewrite zdrop_app_l by lia.
  rewrite <- app_assoc. reflexivity.
Qed.

Lemma ref_discard i l : refines_at s (ODiscard i l).
Proof.
  intros s' r. cbn [bbstep]. unfold valid_slot, s, nf, setmem; cbn [si ri wi bcap bmem oneb].
  lens.
  destruct ((l <=? 0) || negb _) eqn:E; intros [= <- <-].
  - eapply refines_same.
    + cbn [tfstep]. unfold tvalid; cbn [t_saved]. replace (_ && (0 <? l)) with false by lia. reflexivity.
    + destruct ((0 <=? i) && (0 <=? l) && (i + l <=? zlen a)); reflexivity.
  - eapply (refines_eq (ztake i a ++ zdrop (i + l) a) b c); cbn [si ri wi bcap bmem];
      autorewrite with zlen; try lia.
    + apply remove_range_saved; lia.
    + cbn [tfstep]. unfold tvalid; cbn [t_saved t_read t_pend t_room].
      replace (_ && (0 <? l)) with true by lia. f_equal. f_equal. lia.
    + apply Z.eqb_refl.
Qed.

Lemma ref_discardall : refines_at s ODiscardAll.
Proof.
  intros s' r. cbn [bbstep]. unfold s, nf, setmem; cbn [si ri wi bcap bmem oneb].
  lens.
  destruct (zlen a <=? 0) eqn:E; intros [= <- <-].
  - assert (a = []) as Hnil by (apply zlen_zero_nil; lia).
    eapply refines_same.
    + cbn [tfstep t_saved t_read t_pend t_room]. replace (zlen a) with 0 by lia. rewrite Z.add_0_r, <- Hnil. reflexivity.
    + reflexivity.
  - eapply (refines_eq [] b c); cbn [si ri wi bcap bmem]; autorewrite with zlen; try lia.
    + rewrite remove_range_saved, ztake_nonpos, zdrop_all by lia. reflexivity.
    + cbn [tfstep t_saved t_read t_pend t_room]. f_equal. f_equal. lia.
    + reflexivity.
Qed.

Lemma ref_reset : refines_at s OReset.
Proof.
  intros s' r [= <- <-]. lens.
  eapply (refines_nf [] [] [] cap ob); [reflexivity|autorewrite with zlen; lia|assumption| |].
  - cbn [tfstep t_saved t_read t_pend t_room]. autorewrite with zlen. f_equal. f_equal. lia.
  - reflexivity.
Qed.

Lemma refines_consuming o n r want :
  let k := clamp n 0 (zlen b) in
  let room := cap - (zlen a + zlen b + zlen c) in
  tfstep (mktf a b c room) o (room + k) = (mktf a (zdrop k b) c (room + k), want) ->
  ret_ok want r = true ->
  let s' := consume s n in
  refined s s' o r.
Proof.
  intros k room Ht Hr. lens.
  assert (0 <= k <= zlen b) by (unfold k, clamp; lia).
  unfold s. rewrite consume_nf. fold k.
  eapply refines_nf; [reflexivity|autorewrite with zlen; lia|assumption| |exact Hr].
  autorewrite with zlen. cbv zeta. replace (cap - (zlen a + (zlen b - k) + zlen c)) with (room + k) by (unfold room; lia).
  exact Ht.
Qed.
Arguments refines_consuming {o n r want}.

Lemma ref_consume n : refines_at s (OConsume n).
Proof. intros s' r [= <- <-]. eapply refines_consuming; reflexivity. Qed.

Lemma ref_read m : refines_at s (ORead m).
Proof.
  intros s' r. cbn [bbstep]. unfold s. rewrite !readLen_nf. fold s.
  lens.
  destruct (m <=? 0) eqn:E0; [|destruct (zlen b =? 0) eqn:E1]; intros [= <- <-].
  (* nothing is read, for either reason: the specification returns clamp m 0 |b| = 0 bytes *)
  1,2: assert (Hk : clamp m 0 (zlen b) = 0) by (unfold clamp; lia).
  1,2: eapply (refines_same (want := TBytes [])); [cbn [tfstep t_saved t_read t_pend t_room]|reflexivity].
  1,2: rewrite Hk, zdrop_nonpos, ztake_nonpos, Z.add_0_r by lia; reflexivity.
  assert (Hk : clamp (Z.min m (zlen b)) 0 (zlen b) = Z.min m (zlen b)) by (unfold clamp; lia).
  eapply refines_consuming.
  - rewrite Hk. cbn [tfstep t_saved t_read t_pend t_room].
    replace (clamp m 0 (zlen b)) with (Z.min m (zlen b)) by (unfold clamp; lia). reflexivity.
  - cbn [ret_ok]. unfold s, nf; cbn [si bmem]. rewrite zsub_mid by lia. apply list_eqb_refl.
Qed.

Lemma refines_append o w k cap' r want :
  zlen w = k -> zlen a + zlen b + zlen c + k <= cap' -> cap' < two63 ->
  (let room' := cap' - (zlen a + zlen b + zlen c + k) in
   tfstep (mktf a b c (cap - (zlen a + zlen b + zlen c))) o room' = (mktf a b (c ++ w) room', want)) ->
  ret_ok want r = true ->
  let s' := mkbb (zlen a) (zlen a + zlen b) (zlen a + zlen b + zlen c + k) cap' ((a ++ b ++ c) ++ w) ob in
  refined s s' o r.
Proof.
  intros <- Hfit H63 Ht Hr s'. lens.
  apply (refines_eq a b (c ++ w) (want := want)); unfold s'; cbn [si ri wi bcap bmem]; autorewrite with zlen;
    try (assumption || lia).
  rewrite <- !app_assoc. reflexivity.
Qed.
Arguments refines_append {o w k cap' r want}.

Lemma ref_readfrom w n err : refines_at s (OReadFrom w n err).
Proof.
  intros s' r. cbn [bbstep]. unfold s, nf, setmem, chk; cbn [si ri wi bcap bmem oneb].
  lens. pose proof (zlen_nonneg w).
  set (k := Z.max 0 (Z.min n (Z.min (zlen w) (cap - (zlen a + zlen b + zlen c))))).
  assert (Hk : 0 <= k <= zlen w /\ k <= cap - (zlen a + zlen b + zlen c)) by (unfold k; lia).
  destruct err.
  - intros [= <- <-]. eapply refines_same; [reflexivity|]. cbn. rewrite Z.eqb_refl. reflexivity.
  - destruct (_ && _) eqn:E; [|discriminate]. intros [= <- <-].
    eapply refines_append; [apply zlen_ztake; lia|lia|assumption| |].
    + cbn [tfstep t_saved t_read t_pend t_room]. fold k. f_equal. f_equal. lia.
    + cbn. rewrite !Z.eqb_refl. reflexivity.
Qed.

Lemma ref_write w newcap : env_ok s (OWrite w newcap) -> refines_at s (OWrite w newcap).
Proof.
  intros He s' r. cbn [bbstep env_ok] in *. unfold s, nf in *; cbn [si ri wi bcap bmem oneb] in *.
  lens. intros [= <- <-].
  (* the capacity grows exactly when the specification runs out of room *)
  assert (Hret : ret_ok (TCountErr (zlen w) false) (RIntErr (zlen w) 0) = true)
    by (cbn; rewrite !Z.eqb_refl; reflexivity).
  destruct (_ <=? cap) eqn:E.
  - eapply refines_append; [reflexivity|lia|lia| |exact Hret].
    cbn [tfstep t_saved t_read t_pend t_room]. replace (zlen w <=? _) with true by lia. f_equal. f_equal. lia.
  - eapply refines_append; [reflexivity|lia|lia| |exact Hret].
    cbn [tfstep t_saved t_read t_pend t_room]. replace (zlen w <=? _) with false by lia. reflexivity.
Qed.

Lemma ref_claim w n : env_ok s (OClaim w n) -> refines_at s (OClaim w n).
Proof.
  intros He s' r. cbn [bbstep env_ok] in *. unfold s, nf, setmem in *; cbn [si ri wi bcap bmem oneb] in *.
  lens.
  destruct ((0 <=? n) && (n <=? cap - (zlen a + zlen b + zlen c))) eqn:E; intros [= <- <-].
  - eapply refines_append; [apply zlen_ztake; lia|lia|assumption| |].
    + cbn [tfstep t_saved t_read t_pend t_room]. rewrite E. f_equal. f_equal. lia.
    + reflexivity.
  - eapply refines_same; [cbn [tfstep t_room]; rewrite E; reflexivity|reflexivity].
Qed.

Lemma ref_claimfixed n w : env_ok s (OClaimFixed n w) -> refines_at s (OClaimFixed n w).
Proof.
  intros He s' r. cbn [bbstep env_ok] in *. unfold s, nf, setmem in *; cbn [si ri wi bcap bmem oneb] in *.
  lens.
  destruct ((0 <=? n) && (n <=? cap - (zlen a + zlen b + zlen c))) eqn:E; intros [= <- <-].
  - rewrite ztake_app_l by lia.
    eapply refines_append; [apply zlen_ztake; lia|lia|assumption| |].
    + cbn [tfstep t_saved t_read t_pend t_room]. rewrite E. f_equal. f_equal. lia.
    + cbn. apply Z.eqb_refl.
  - eapply refines_same; [cbn [tfstep t_room]; rewrite E; reflexivity|reflexivity].
Qed.

Lemma ref_shrinkby n : refines_at s (OShrinkBy n).
Proof.
  intros s' r H. cbn [bbstep] in H. unfold s in H. rewrite shrinkBy_nf in H. injection H as <- <-.
  lens. assert (0 <= clamp n 0 (zlen c) <= zlen c) by (unfold clamp; lia).
  eapply refines_nf; [reflexivity|autorewrite with zlen; lia|assumption| |].
  - cbn [tfstep t_saved t_read t_pend t_room]. autorewrite with zlen. f_equal. f_equal. lia.
  - cbn. apply Z.eqb_refl.
Qed.

Lemma ref_shrinkto n : is_int64 n -> refines_at s (OShrinkTo n).
Proof.
  intros Hn s' r H. cbn [bbstep] in H. unfold s in H. rewrite writeLen_nf, shrinkBy_nf in H. injection H as <- <-.
  lens.
  set (k := clamp (wrap64 (zlen c - n)) 0 (zlen c)). assert (Hk : 0 <= k <= zlen c) by (unfold k, clamp; lia).
  (* either nothing wraps and k is the specification's amount, or zlen c - n overflows int64 and wraps to a negative
     number: nothing is shrunk, which the specification accepts for a negative target that leaves the room as it was *)
  assert (Hcases : k = clamp (zlen c - n) 0 (zlen c) \/ n < 0 /\ k = 0).
  { unfold is_int64 in Hn. destruct (Z_lt_le_dec (zlen c - n) two63).
    - left. unfold k. rewrite wrap64_id by lia. reflexivity.
    - right. unfold k. rewrite wrap64_over by lia. unfold clamp. lia. }
  eapply refines_nf; [reflexivity|autorewrite with zlen; lia|assumption| |].
  - cbn [tfstep t_saved t_read t_pend t_room]. autorewrite with zlen.
    destruct ((n <? 0) && (_ =? _)) eqn:E.
    + replace k with 0 by lia. rewrite Z.sub_0_r, ztake_all by lia. reflexivity.
    + destruct Hcases as [<-|[? ?]]; [|lia]. f_equal. f_equal. lia.
  - reflexivity.
Qed.

Lemma ref_unreadbyte : refines_at s OUnreadByte.
Proof.
  intros s' r. cbn [bbstep]. unfold writeLen, s, nf, setmem; cbn [si ri wi bcap bmem oneb].
  lens.
  replace (zlen a + zlen b + zlen c - (zlen a + zlen b)) with (zlen c) by lia.
  destruct (zlen c >? 0) eqn:E; intros [= <- <-].
  - rewrite ztake_app3 by lia.
    eapply (refines_nf a b (ztake (zlen c - 1) c) cap ob);
      [unfold nf; autorewrite with zlen; f_equal; lia|autorewrite with zlen; lia|assumption| |].
    + cbn [tfstep t_saved t_read t_pend t_room]. replace (0 <? zlen c) with true by lia.
      autorewrite with zlen. f_equal. f_equal. lia.
    + reflexivity.
  - eapply refines_same; [cbn [tfstep t_pend]; replace (0 <? zlen c) with false by lia; reflexivity|reflexivity].
Qed.

Lemma write_loop_nf fuel : forall res written,
  write_loop s res written fuel =
  (let '(x, f) := twrite_loop (zlen b) res written fuel in (x, if f then 3 else 0)).
Proof.
  induction fuel as [|f IH]; intros res written; [reflexivity|]. cbn [write_loop twrite_loop].
  unfold s at 1 2, nf; cbn [si ri].
  replace (zlen a + written <? zlen a + zlen b) with (written <? zlen b) by lia.
  destruct (written <? zlen b); [|reflexivity].
  destruct res as [|[n failed] rest]; [reflexivity|].
  destruct failed; [reflexivity|]. apply IH.
Qed.

Lemma ref_writeto res : refines_at s (OWriteTo res).
Proof.
  intros s' r. cbn [bbstep]. rewrite write_loop_nf.
  destruct (twrite_loop (zlen b) res 0 (S (length res))) as [written failed] eqn:E. intros [= <- <-].
  eapply refines_consuming.
  - cbn [tfstep t_read]. rewrite E. reflexivity.
  - cbn. rewrite Z.eqb_refl. destruct failed; reflexivity.
Qed.

Lemma ref_asyncwriteto n err : refines_at s (OAsyncWriteTo n err).
Proof.
  intros s' r. cbn [bbstep]. destruct err; intros [= <- <-].
  - eapply refines_same; [reflexivity|]. cbn. rewrite Z.eqb_refl. reflexivity.
  - eapply refines_consuming; [reflexivity|]. cbn. rewrite !Z.eqb_refl. reflexivity.
Qed.

Lemma tfstep_prepareread_idle t n room :
  let need := n - zlen (t_read t) in
  (0 <? need) && (need <=? zlen (t_pend t)) = false ->
  tfstep t (OPrepareRead n) room = (t, if 0 <? need then TInt 2 else if n <? 0 then TAny else TInt 0).
Proof. intros need H. cbn [tfstep]. fold need. rewrite H. destruct (0 <? need); reflexivity. Qed.

Lemma ref_prepareread n : is_int64 n -> refines_at s (OPrepareRead n).
Proof.
  intros Hn s' r. cbn [bbstep]. unfold s. rewrite readLen_nf, writeLen_nf. fold s.
  lens. set (need := n - zlen b). unfold is_int64 in Hn.
  (* need either does not wrap, or underflows int64 and wraps to more than the pending region holds *)
  assert (Hcases : wrap64 need = need \/ need < - two63 /\ zlen c < wrap64 need).
  { destruct (Z_le_gt_dec (- two63) need).
    - left. apply wrap64_id. lia.
    - right. rewrite wrap64_under by lia. lia. }
  destruct (wrap64 need >? 0) eqn:E1; [destruct (zlen c >=? wrap64 need) eqn:E2|]; intros [= <- <-].
  - destruct Hcases as [Hw|[? ?]]; [rewrite Hw in *|lia]. unfold s. rewrite commit_nf.
    replace (clamp need 0 (zlen c)) with need by (unfold clamp; lia).
    eapply refines_nf; [reflexivity|autorewrite with zlen; lia|assumption| |].
    + cbn [tfstep t_saved t_read t_pend t_room]. fold need. replace (_ && _) with true by lia.
      autorewrite with zlen. f_equal. f_equal. lia.
    + reflexivity.
  - eapply refines_same; [apply tfstep_prepareread_idle; cbn [t_read t_pend]; fold need; lia|].
    cbn [t_read]. fold need. destruct Hcases as [Hw|[? ?]].
    + replace (0 <? need) with true by lia. reflexivity.
    + replace (0 <? need) with false by lia. replace (n <? 0) with true by lia. reflexivity.
  - eapply refines_same; [apply tfstep_prepareread_idle; cbn [t_read t_pend]; fold need; lia|].
    cbn [t_read]. fold need. replace (0 <? need) with false by lia. destruct (n <? 0); reflexivity.
Qed.

End Ops.
Arguments refines_nf {a b c cap ob} Hcap Hc63 {o s' r} a' b' c' cap' ob' {want}.
Arguments refines_same {a b c cap ob} Hcap Hc63 {o r want}.

(* outside the section because the proof goes by cases on b, which a section variable does not allow *)
Lemma ref_readbyte a b c cap ob :
  zlen a + zlen b + zlen c <= cap -> cap < two63 -> refines_at (nf a b c cap ob) OReadByte.
Proof.
  intros Hcap Hc63 s' r. cbn [bbstep]. rewrite readLen_nf.
  pose proof (zlen_nonneg a); pose proof (zlen_nonneg c).
  destruct b as [|x b'].
  - intros [= <- <-]. eapply refines_same; (assumption || reflexivity).
  - pose proof (zlen_nonneg b'). pose proof (zlen_cons x b') as Hl.
    replace (zlen (x :: b') =? 0) with false by lia. intros [= <- <-].
    (* the state is consume s 1 with the byte stored in the scratch array *)
    rewrite consume_nf. replace (clamp 1 0 (zlen (x :: b'))) with 1 by (unfold clamp; lia).
    change (zsub _ _ _) with (zsub (zlen a) (zlen a + 1) (a ++ (x :: b') ++ c)). rewrite zsub_mid by lia.
    eapply (refines_nf Hcap Hc63 a b' c cap x); [reflexivity|lia|assumption| |].
    + cbn [tfstep t_saved t_read t_pend t_room]. f_equal. f_equal. lia.
    + cbn. rewrite Z.eqb_refl. reflexivity.
Qed.

Fixpoint wf_hist (s : bb) (ops : list bbop) : Prop :=
  match ops with
  | [] => True
  | o :: rest => env_ok s o /\ match bbstep s o with Ok (s', _) => wf_hist s' rest | Panic => True end
  end.

(* None: a panic, or a result the specification does not allow *)
Fixpoint corun (s : bb) (t : tf) (ops : list bbop) : option (bb * tf) :=
  match ops with
  | [] => Some (s, t)
  | o :: rest =>
      match bbstep s o with
      | Panic => None
      | Ok (s', r) =>
          let '(t', want) := tfstep t o (bcap s' - wi s') in
          if ret_ok want r then corun s' t' rest else None
      end
  end.
