(* C08 C15 C16 C06, the stream model Model/WsStream.v: two invariants of every run (the Close frame is queued once and
   last; the wire is the queue, in order) from one preservation principle over the state transformers the operations
   are composed of; handle_control / handle_frame as equations; the read loop against the parser; mviolates against the
   RFC rules of Spec/WsSession.v.  LenCodecProofs is imported for its transport lemmas (tr_read_spec,
   tr_write_all_healthy). *)
From Sonic Require Import Base.Prelude Base.ListLemmas Gen.Consts Gen.Preds Spec.ThreeFifo Model.WsFrame
  Spec.FrameParser Model.WsCodec Model.Transport Model.Utf8 Model.WsStream Spec.WsSession Proofs.WsCodecProofs
  Proofs.LenCodecProofs.
Local Open Scope Z_scope.

Definition entry : Type := (bool * Z * list Z * list Z)%type.
Definition e_op (e : entry) : Z := snd (fst (fst e)).
Definition is_close (e : entry) : bool := e_op e =? ws_OpcodeClose.
Definition no_close (l : list entry) : Prop := Forall (fun e => is_close e = false) l.

Definition close_last (l : list entry) : Prop :=
  no_close l \/ exists pre x, l = pre ++ [x] /\ is_close x = true /\ no_close pre.

Definition log_inv (s : ws) : Prop :=
  (w_state s = ws_StateActive -> no_close (w_log s)) /\ close_last (w_log s).

Lemma no_close_app l x : no_close l -> is_close x = false -> no_close (l ++ [x]).
Proof. intros H Hx. apply Forall_app. split; [exact H|]. constructor; [exact Hx|constructor]. Qed.

Lemma queue_frame_eq s fin op p :
  queue_frame s fin op p =
  mkws (w_state s) (w_codec s) (w_dst s) (w_tr s) (w_pending s ++ [build_frame fin 0 op true (fst (take_key s)) p])
    (w_max s) (tl (w_keys s)) (w_rpend s) (w_log s ++ [(fin, op, p, fst (take_key s))]).
Proof. unfold queue_frame, take_key. destruct (w_keys s) eqn:E; cbn; rewrite ?E; reflexivity. Qed.

Lemma prepare_close_log s st p :
  w_state (prepare_close (set_state s st) p) = st /\
  exists key, w_log (prepare_close (set_state s st) p) = w_log s ++ [(true, ws_OpcodeClose, p, key)].
Proof. unfold prepare_close. rewrite queue_frame_eq. split; [reflexivity|eexists; reflexivity]. Qed.

Lemma set_state_same_inv s st : log_inv s -> (st = ws_StateActive -> w_state s = ws_StateActive) -> log_inv (set_state s st).
Proof. intros [H1 H2] Hst. unfold log_inv; cbn. split; [intros E; apply H1; auto|exact H2]. Qed.

Lemma log_inv_ext s s' : w_state s' = w_state s -> w_log s' = w_log s -> log_inv s -> log_inv s'.
Proof. intros Est Elog [H1 H2]. unfold log_inv. rewrite Est, Elog. auto. Qed.

Lemma flush_gen_state_log async s :
  w_state (fst (flush_gen async s)) = w_state s /\ w_log (fst (flush_gen async s)) = w_log s.
Proof.
  unfold flush_gen, flush_async, flush_sync. destruct async.
  - destruct (aflush_loop _ _ _) as [[[d t] rest] err]. split; reflexivity.
  - destruct (flush_loop _ _ _) as [[[d t] rest] err]. split; reflexivity.
Qed.

Definition enc (e : entry) : list Z :=
  let '(fin, op, p, key) := e in build_frame fin 0 op true key p.

Definition healthy (s : ws) : Prop := tr_wfail (w_tr s) < 0.

Definition wire_inv (s : ws) : Prop :=
  healthy s /\
  exists n, (n <= length (w_log s))%nat /\
    tr_wire (w_tr s) = concat (map wire_bytes (map enc (firstn n (w_log s)))) /\
    w_pending s = map enc (skipn n (w_log s)) /\
    t_read (w_dst s) = [] /\ t_pend (w_dst s) = [].

Lemma write_frame_out_healthy d t f :
  tr_wfail t < 0 -> t_read d = [] -> t_pend d = [] ->
  let '(d', t', failed) := write_frame_out d t f in
  failed = false /\ t_read d' = [] /\ t_pend d' = [] /\ tr_wire t' = tr_wire t ++ wire_bytes f /\
  tr_wfail t' = tr_wfail t /\ tr_in t' = tr_in t.
Proof.
  intros Hh Hr Hp. unfold write_frame_out. rewrite tr_write_all_healthy, Hr, Hp by exact Hh. cbn [app t_read].
  pose proof (zlen_nonneg (wire_bytes f)).
  destruct (tconsume_spec (mktf (t_saved d) (wire_bytes f) [] (t_room d)) (zlen (wire_bytes f))) as [-> ->];
    [cbn [t_read]; lia|].
  cbn [t_read t_pend tr_wire tr_wfail tr_in]. rewrite zdrop_all by lia. repeat split; reflexivity.
Qed.

Lemma flush_loop_healthy fs : forall d t,
  tr_wfail t < 0 -> t_read d = [] -> t_pend d = [] ->
  let '(d', t', rest, err) := flush_loop d t fs in
  rest = [] /\ err = eNone /\ t_read d' = [] /\ t_pend d' = [] /\
  tr_wire t' = tr_wire t ++ concat (map wire_bytes fs) /\ tr_wfail t' = tr_wfail t /\ tr_in t' = tr_in t.
Proof.
  induction fs as [|f fs IH]; intros d t Hh Hr Hp; cbn [flush_loop map concat].
  - rewrite app_nil_r. repeat split; auto.
  - pose proof (write_frame_out_healthy d t f Hh Hr Hp) as Hw.
    destruct (write_frame_out d t f) as [[d1 t1] failed]. destruct Hw as (-> & Hr1 & Hp1 & Hw1 & Hf1 & Hi1).
    specialize (IH d1 t1 ltac:(lia) Hr1 Hp1). destruct (flush_loop d1 t1 fs) as [[[d2 t2] rest] err].
    destruct IH as (Hrest & Herr & Hr2 & Hp2 & Hw2 & Hf2 & Hi2). repeat split; auto; try congruence.
    rewrite Hw2, Hw1, <- app_assoc. reflexivity.
Qed.

(* the two flushes differ only after a failed write *)
Lemma aflush_loop_healthy fs : forall d t, tr_wfail t < 0 -> aflush_loop d t fs = flush_loop d t fs.
Proof.
  induction fs as [|f fs IH]; intros d t Hh; cbn [aflush_loop flush_loop]; [reflexivity|].
  unfold write_frame_out. rewrite tr_write_all_healthy by exact Hh. apply IH. exact Hh.
Qed.

(* the result is given as a term, so that its other fields are those of s by computation *)
Lemma flush_gen_healthy async s : wire_inv s ->
  exists d t, flush_gen async s = (set_pending (set_out s d t) [], eNone) /\
    tr_in t = tr_in (w_tr s) /\ tr_wire t = concat (map wire_bytes (map enc (w_log s))) /\
    wire_inv (set_pending (set_out s d t) []).
Proof.
  intros (Hh & n & Hn & Hw & Hp & Hr & Hpd). unfold healthy in Hh.
  assert (Hs : flush_gen async s = flush_sync s).
  { destruct async; [|reflexivity]. unfold flush_gen, flush_async, flush_sync. rewrite aflush_loop_healthy by exact Hh. reflexivity. }
  rewrite Hs. unfold flush_sync.
  pose proof (flush_loop_healthy (w_pending s) (w_dst s) (w_tr s) Hh Hr Hpd) as Hl.
  destruct (flush_loop _ _ _) as [[[d t] rest] err]. destruct Hl as (-> & -> & Hrd & Hpd1 & Hwire & Hwf & Hin).
  assert (Hall : tr_wire t = concat (map wire_bytes (map enc (w_log s)))).
  { rewrite Hwire, Hw, Hp. rewrite <- concat_app, <- !map_app, firstn_skipn. reflexivity. }
  exists d, t. split; [reflexivity|]. split; [exact Hin|]. split; [exact Hall|].
  split; [unfold healthy; cbn; lia|].
  exists (length (w_log s)). cbn. rewrite firstn_all, skipn_all. auto.
Qed.

Lemma queue_frame_wire s fin op p : wire_inv s -> wire_inv (queue_frame s fin op p).
Proof.
  intros (Hh & n & Hn & Hw & Hp & Hr & Hpd). rewrite queue_frame_eq. unfold wire_inv, healthy.
  cbn [w_tr w_log w_pending w_dst]. split; [exact Hh|]. exists n.
  rewrite app_length, firstn_app, skipn_app. replace (n - length (w_log s))%nat with O by lia. cbn [firstn skipn].
  rewrite app_nil_r, map_app, Hp. repeat split; auto. lia.
Qed.

(* all that wire_inv reads *)
Definition same_out (s s' : ws) : Prop :=
  w_log s' = w_log s /\ w_pending s' = w_pending s /\ w_dst s' = w_dst s /\
  tr_wire (w_tr s') = tr_wire (w_tr s) /\ tr_wfail (w_tr s') = tr_wfail (w_tr s).

Lemma same_out_wire s s' : same_out s s' -> wire_inv s -> wire_inv s'.
Proof.
  intros (Elog & Equeue & Edst & Ewire & Ewfail) (Hh & n & Hn & Hw & Hp & Hr & Hpd). unfold wire_inv, healthy in *.
  rewrite Elog, Equeue, Edst, Ewire, Ewfail. split; [exact Hh|]. exists n. auto.
Qed.

(* same_out_refl and same_out_trans are used by no proof *)
Lemma same_out_refl s : same_out s s.
Proof. repeat split. Qed.

Lemma same_out_trans a b c : same_out a b -> same_out b c -> same_out a c.
Proof. intros (A1 & A2 & A3 & A4 & A5) (B1 & B2 & B3 & B4 & B5). repeat split; congruence. Qed.

Lemma set_state_out s st : same_out s (set_state s st).
Proof. repeat split. Qed.
Lemma set_rpend_out s k : same_out s (set_rpend s k).
Proof. repeat split. Qed.

Lemma ws_read_loop_out fuel : forall c t async,
  let '(c', t', r) := ws_read_loop fuel c t async in tr_wire t' = tr_wire t /\ tr_wfail t' = tr_wfail t.
Proof.
  induction fuel as [|f IH]; intros c t async; cbn [ws_read_loop]; [auto|].
  destruct (decode c) as [c1 r]. destruct r; auto.
  unfold tr_read. destruct (tr_read_ev (tr_in t)) as [q rr].
  destruct rr as [l| | |]; auto.
  specialize (IH (feed c1 l) (mktr q (tr_wire t) (tr_wfail t) (tr_wblock t)) async).
  destruct (ws_read_loop f (feed c1 l) _ async) as [[c' t'] r']. exact IH.
Qed.

Definition close_reply_payload (p : list Z) : list Z :=
  if zlen p >=? 2 then
    if utf8_valid (zdrop 2 p) && ValidCloseCode (be_value (ztake 2 p)) then p else be_bytes 2 ws_CloseProtocolError
  else if zlen p >? 0 then be_bytes 2 ws_CloseProtocolError else be_bytes 2 ws_CloseNormal.

(* handle_frame in parts: the verdict depends on the frame alone (frame_err); the session changes by on_control or by
   on_violation *)
Definition control_err (f : list Z) : Z :=
  if negb (is_fin f) then eInvalidControl
  else if payload_length f >? ws_MaxControlFramePayloadLength then eControlTooBig
  else if Opcode_IsControl (opcode_of f) then eNone else eInvalidControl.

Definition frame_err (f : list Z) : Z :=
  if negb (verify_frame f =? eNone) then verify_frame f
  else if Opcode_IsControl (opcode_of f) then control_err f else handle_data f.

Definition on_control (s : ws) (f : list Z) : ws :=
  if opcode_of f =? ws_OpcodePing then
    if w_state s =? ws_StateActive then queue_frame s true ws_OpcodePong (payload_of f) else s
  else if opcode_of f =? ws_OpcodePong then s
  else if opcode_of f =? ws_OpcodeClose then
    if w_state s =? ws_StateActive
    then prepare_close (set_state s ws_StateClosedByPeer) (close_reply_payload (payload_of f))
    else if w_state s =? ws_StateClosedByUs then set_state s ws_StateCloseAcked else s
  else s.

Definition on_violation (s : ws) : ws :=
  if w_state s =? ws_StateActive
  then prepare_close (set_state s ws_StateClosedByUs) (close_payload ws_CloseProtocolError []) else s.

Lemma handle_control_eq s f :
  handle_control s f = (if control_err f =? eNone then on_control s f else s, control_err f).
Proof.
  unfold handle_control, control_err, on_control.
  change (Opcode_IsControl (opcode_of f))
    with ((opcode_of f =? ws_OpcodePing) || (opcode_of f =? ws_OpcodePong) || (opcode_of f =? ws_OpcodeClose)).
  destruct (negb (is_fin f)); [reflexivity|].
  destruct (payload_length f >? ws_MaxControlFramePayloadLength); [reflexivity|].
  destruct (opcode_of f =? ws_OpcodePing); [reflexivity|].
  destruct (opcode_of f =? ws_OpcodePong); [reflexivity|].
  destruct (opcode_of f =? ws_OpcodeClose); [|reflexivity]. cbn [orb Z.eqb eNone].
  destruct (w_state s =? ws_StateActive); [|destruct (w_state s =? ws_StateClosedByUs); reflexivity].
  (* what is left is the model's validation of the peer's payload: close_reply_payload *)
  unfold close_reply_payload. destruct (zlen (payload_of f) >=? 2); [|destruct (zlen (payload_of f) >? 0); reflexivity].
  destruct (utf8_valid (zdrop 2 (payload_of f))); [|reflexivity].
  destruct (ValidCloseCode (be_value (ztake 2 (payload_of f)))); reflexivity.
Qed.

Lemma control_err_ok f : Opcode_IsControl (opcode_of f) = true ->
  control_err f = eNone <-> negb (is_fin f) || (payload_length f >? ws_MaxControlFramePayloadLength) = false.
Proof.
  intros Hc. unfold control_err. rewrite Hc.
  destruct (negb (is_fin f)); [split; discriminate|].
  destruct (payload_length f >? ws_MaxControlFramePayloadLength); split; (reflexivity || discriminate).
Qed.

Lemma control_accepted s f :
  is_fin f = true -> payload_length f <= ws_MaxControlFramePayloadLength -> Opcode_IsControl (opcode_of f) = true ->
  handle_control s f = (on_control s f, eNone).
Proof.
  intros Hf Hl Hc.
  assert (E : control_err f = eNone) by (apply (control_err_ok f Hc); rewrite Hf; cbn [negb orb]; lia).
  rewrite handle_control_eq, E. reflexivity.
Qed.

Lemma on_control_ping s f : opcode_of f = ws_OpcodePing ->
  on_control s f = if w_state s =? ws_StateActive then queue_frame s true ws_OpcodePong (payload_of f) else s.
Proof. intros H. unfold on_control. rewrite H. reflexivity. Qed.

Lemma on_control_pong s f : opcode_of f = ws_OpcodePong -> on_control s f = s.
Proof. intros H. unfold on_control. rewrite H. reflexivity. Qed.

Lemma on_control_close s f : opcode_of f = ws_OpcodeClose ->
  on_control s f =
    if w_state s =? ws_StateActive
    then prepare_close (set_state s ws_StateClosedByPeer) (close_reply_payload (payload_of f))
    else if w_state s =? ws_StateClosedByUs then set_state s ws_StateCloseAcked else s.
Proof. intros H. unfold on_control. rewrite H. reflexivity. Qed.

Lemma handle_frame_eq s f :
  handle_frame s f =
    (if frame_err f =? eNone then (if Opcode_IsControl (opcode_of f) then on_control s f else s) else on_violation s,
     frame_err f).
Proof.
  unfold handle_frame, frame_err, on_violation.
  destruct (verify_frame f =? eNone) eqn:Ev; cbn [negb]; [|rewrite Ev; reflexivity].
  destruct (Opcode_IsControl (opcode_of f)).
  - rewrite handle_control_eq. destruct (control_err f =? eNone) eqn:Ec; cbn [negb]; reflexivity.
  - destruct (handle_data f =? eNone); reflexivity.
Qed.

Fixpoint wsrun (s : ws) (ops : list wsop) : ws :=
  match ops with [] => s | o :: rest => wsrun (fst (wsstep s o)) rest end.

(* Every operation of the stream is composed of a handful of state transformers; a predicate that each of them preserves
   is preserved by wsstep.  [user_op]: the opcodes the predicate tolerates in frames the application (or the Pong reply)
   queues while Active; [wfail_ok]: whether it survives the script arming a transport failure. *)
Set Implicit Arguments.
Record preserved (P : ws -> Prop) (user_op : Z -> Prop) (wfail_ok : Prop) : Prop := {
  P_flush : forall async s, P s -> P (fst (flush_gen async s));
  P_queue : forall s fin op p, P s -> w_state s = ws_StateActive -> user_op op -> P (queue_frame s fin op p);
  P_pong : user_op ws_OpcodePong;
  P_close : forall s st p,
    P s -> w_state s = ws_StateActive -> st <> ws_StateActive -> P (prepare_close (set_state s st) p);
  P_leave : forall s st, P s -> st <> ws_StateActive -> P (set_state s st);
  P_io : forall s c t, tr_wire t = tr_wire (w_tr s) -> tr_wfail t = tr_wfail (w_tr s) -> P s -> P (set_io s c t);
  P_rpend : forall s k, P s -> P (set_rpend s k);
  P_max : forall s n, P s -> P (set_max s n);
  P_wfail : forall s n, wfail_ok -> P s -> P (set_out s (w_dst s) (tr_set_wfail (w_tr s) n))
}.
Unset Implicit Arguments.

Section Preserve.
Variable P : ws -> Prop.
Variable user_op : Z -> Prop.
Variable wfail_ok : Prop.
Hypothesis HP : preserved P user_op wfail_ok.

Lemma on_control_P s f : P s -> P (on_control s f).
Proof.
  intros Hi. unfold on_control.
  destruct (opcode_of f =? ws_OpcodePing).
  { destruct (w_state s =? ws_StateActive) eqn:Ea; [apply (P_queue HP); [exact Hi|lia|exact (P_pong HP)]|exact Hi]. }
  destruct (opcode_of f =? ws_OpcodePong); [exact Hi|].
  destruct (opcode_of f =? ws_OpcodeClose); [|exact Hi].
  destruct (w_state s =? ws_StateActive) eqn:Ea; [apply (P_close HP); [exact Hi|lia|discriminate]|].
  destruct (w_state s =? ws_StateClosedByUs); [apply (P_leave HP); [exact Hi|discriminate]|exact Hi].
Qed.

Lemma on_violation_P s : P s -> P (on_violation s).
Proof.
  intros Hi. unfold on_violation.
  destruct (w_state s =? ws_StateActive) eqn:Ea; [apply (P_close HP); [exact Hi|lia|discriminate]|exact Hi].
Qed.

Lemma handle_frame_P s f : P s -> P (fst (handle_frame s f)).
Proof.
  intros Hi. rewrite handle_frame_eq. cbn [fst].
  destruct (frame_err f =? eNone); [|apply on_violation_P, Hi].
  destruct (Opcode_IsControl (opcode_of f)); [apply on_control_P, Hi|exact Hi].
Qed.

Lemma after_read_P s r : P s -> P (fst (after_read s r)).
Proof.
  intros Hi. destruct r as [f|e|]; cbn [after_read].
  - pose proof (handle_frame_P s f Hi) as H. destruct (handle_frame s f). exact H.
  - destruct ((e =? eEOF) && negb (w_state s =? ws_StateTerminated)); [apply (P_leave HP); [exact Hi|discriminate]|exact Hi].
  - exact Hi.
Qed.

Lemma read_and_handle_P async s : P s -> P (fst (read_and_handle async s)).
Proof.
  intros Hi. unfold read_and_handle.
  pose proof (ws_read_loop_out (rfuel (w_tr s)) (w_codec s) (w_tr s) async) as Ho.
  destruct (ws_read_loop _ _ _ _) as [[c t] r]. destruct Ho as [Ewire Ewfail].
  apply after_read_P, (P_io HP); assumption.
Qed.

Lemma next_frame_gen_P async s : P s -> P (fst (next_frame_gen async s)).
Proof.
  intros Hi. unfold next_frame_gen.
  pose proof (P_flush HP async s Hi) as H1. destruct (flush_gen async s) as [s1 ferr]. cbn [fst] in H1.
  assert (Hterm : P (if async then set_state s1 ws_StateTerminated else s1)).
  { destruct async; [apply (P_leave HP); [exact H1|discriminate]|exact H1]. }
  destruct (negb (ferr =? eNone)); [exact Hterm|].
  destruct (negb (can_read s1)); [exact Hterm|].
  pose proof (read_and_handle_P async s1 H1) as H2. destruct (read_and_handle async s1) as [s2 r]. cbn [fst] in H2.
  destruct r as [f e|]; [|exact H2].
  cbn [fst]. destruct (negb async && (e =? eEOF)); [apply (P_leave HP); [exact H2|discriminate]|exact H2].
Qed.

Lemma frame_events_P s r : P s -> P (fst (frame_events s r)).
Proof. intros Hi. destruct r; [exact Hi|apply (P_rpend HP), Hi]. Qed.

Lemma do_close_P async s code reason : P s -> P (fst (do_close async s code reason)).
Proof.
  intros Hi. unfold do_close. destruct (w_state s =? ws_StateActive) eqn:Ea.
  - apply (P_flush HP), (P_close HP); [exact Hi|lia|discriminate].
  - destruct ((w_state s =? ws_StateClosedByUs) || (w_state s =? ws_StateHandshake)); exact Hi.
Qed.

Lemma msg_frame_P async s buflen acc cont mtype f err : P s -> P (fst (msg_frame async s buflen acc cont mtype f err)).
Proof.
  intros Hi. unfold msg_frame.
  destruct (negb (err =? eNone)); [exact Hi|].
  destruct (Opcode_IsControl (opcode_of f)); [exact Hi|].
  destruct ((_ >? w_max s) || _).
  - (* the only place where msg_frame changes the session *)
    destruct (do_close async s ws_CloseGoingAway _) as [s1 e] eqn:Ec.
    apply (f_equal fst) in Ec. cbn [fst] in *. subst s1. apply do_close_P, Hi.
  - destruct (negb (_ =? eNone) || _); exact Hi.
Qed.

Lemma msg_loop_P fuel : forall async s buflen acc cont mtype,
  P s -> P (fst (msg_loop fuel async s buflen acc cont mtype)).
Proof.
  induction fuel as [|fu IH]; intros async s buflen acc cont mtype Hi; cbn [msg_loop]; [exact Hi|].
  pose proof (next_frame_gen_P async s Hi) as H1. destruct (next_frame_gen async s) as [s1 r]. cbn [fst] in H1.
  destruct r as [f err|]; [|apply (P_rpend HP), H1].
  pose proof (msg_frame_P async s1 buflen acc cont mtype f err H1) as H2.
  destruct (msg_frame async s1 buflen acc cont mtype f err) as [s2 m]. cbn [fst] in H2.
  destruct m as [evs0|acc' cont' mtype' evs0]; [exact H2|].
  specialize (IH async s2 buflen acc' cont' mtype' H2).
  destruct (msg_loop fu async s2 buflen acc' cont' mtype'). exact IH.
Qed.

Lemma resume_P s k : P s -> P (fst (resume s k)).
Proof.
  intros Hi. unfold resume.
  pose proof (read_and_handle_P true _ (P_rpend HP s None Hi)) as H1.
  destruct (read_and_handle true (set_rpend s None)) as [s1 r]. cbn [fst] in H1.
  destruct r as [f err|]; [|apply (P_rpend HP), H1].
  destruct k as [|buflen acc cont mtype]; [exact H1|].
  pose proof (msg_frame_P true s1 buflen acc cont mtype f err H1) as H2.
  destruct (msg_frame true s1 buflen acc cont mtype f err) as [s2 m]. cbn [fst] in H2.
  destruct m as [evs0|acc' cont' mtype' evs0]; [exact H2|].
  pose proof (msg_loop_P (mfuel s2) true s2 buflen acc' cont' mtype' H2) as H3.
  destruct (msg_loop (mfuel s2) true s2 buflen acc' cont' mtype'). exact H3.
Qed.

Definition op_ok (o : wsop) : Prop :=
  match o with
  | WWrite _ mt _ => user_op (Z.land mt 15)
  | WWriteFrame _ _ op _ => user_op (Z.land op 15)
  | WWFail _ => wfail_ok
  | _ => True
  end.

Lemma write_P async s fin op p :
  P s -> w_state s = ws_StateActive -> user_op op -> P (fst (flush_gen async (queue_frame s fin op p))).
Proof. intros Hi Ha Hop. apply (P_flush HP), (P_queue HP); assumption. Qed.

Theorem wsstep_P s o : op_ok o -> P s -> P (fst (wsstep s o)).
Proof.
  intros Hw Hi.
  destruct o as [e| | |buflen|buflen|async mt payload|async fin op payload|async|async code reason|n|n];
    cbn [wsstep op_ok] in *.
  - (* WIn *)
    assert (H0 : P (set_io s (w_codec s) (tr_push (w_tr s) e))) by (apply (P_io HP); [reflexivity|reflexivity|exact Hi]).
    destruct (w_rpend (set_io s (w_codec s) (tr_push (w_tr s) e))); [apply resume_P, H0|exact H0].
  - (* WNextFrame *)
    pose proof (next_frame_gen_P false s Hi) as H1. destruct (next_frame_gen false s) as [s1 r]. apply frame_events_P, H1.
  - (* WAsyncNextFrame *)
    pose proof (next_frame_gen_P true s Hi) as H1. destruct (next_frame_gen true s) as [s1 r]. apply frame_events_P, H1.
  - (* WNextMessage *) apply msg_loop_P, Hi.
  - (* WAsyncNextMessage *) apply msg_loop_P, Hi.
  - (* WWrite *)
    destruct (zlen payload >? w_max s); [exact Hi|].
    destruct (w_state s =? ws_StateActive) eqn:Ea; [|exact Hi].
    pose proof (write_P async s true _ payload Hi ltac:(lia) Hw) as H1. destruct (flush_gen async _). exact H1.
  - (* WWriteFrame *)
    destruct (w_state s =? ws_StateActive) eqn:Ea; [|exact Hi].
    pose proof (write_P async s fin _ (match payload with Some p => p | None => [] end) Hi ltac:(lia) Hw) as H1.
    destruct (flush_gen async _). exact H1.
  - (* WFlush *) pose proof (P_flush HP async s Hi) as H1. destruct (flush_gen async s). exact H1.
  - (* WClose *) pose proof (do_close_P async s code reason Hi) as H1. destruct (do_close async s code reason). exact H1.
  - (* WSetMax *) apply (P_max HP), Hi.
  - (* WWFail *) apply (P_wfail HP); assumption.
Qed.

Theorem wsrun_P ops : forall s, Forall op_ok ops -> P s -> P (wsrun s ops).
Proof.
  induction ops as [|o ops IH]; intros s Hf Hi; [exact Hi|]. inversion Hf; subst. cbn [wsrun].
  apply IH; [assumption|]. apply wsstep_P; assumption.
Qed.

End Preserve.
Arguments wsstep_P {P user_op wfail_ok} HP s o _ _.
Arguments wsrun_P {P user_op wfail_ok} HP ops s _ _.

(* the caller does not build data frames with the Close opcode.  wf_op is op_ok at the parameters of log_preserved by
   computation, which is why wsrun_P proves C08_one_close_ever as it is stated. *)
Definition wf_op (o : wsop) : Prop :=
  match o with
  | WWrite _ mt _ => Z.land mt 15 <> ws_OpcodeClose
  | WWriteFrame _ _ op _ => Z.land op 15 <> ws_OpcodeClose
  | _ => True
  end.

Lemma init_log max keys : log_inv (ws_init max keys).
Proof. unfold log_inv, ws_init; cbn. split; [intros _; constructor|left; constructor]. Qed.

Lemma log_preserved : preserved log_inv (fun op => op <> ws_OpcodeClose) True.
Proof.
  split.
  - (* P_flush *) intros async s. destruct (flush_gen_state_log async s). apply log_inv_ext; assumption.
  - (* P_queue *)
    intros s fin op p [H1 H2] Ha Hop. rewrite queue_frame_eq. unfold log_inv. cbn [w_state w_log].
    assert (Hnc : is_close (fin, op, p, fst (take_key s)) = false) by (apply Z.eqb_neq, Hop).
    split; [intros _|left]; apply no_close_app; auto.
  - (* P_pong *) discriminate.
  - (* P_close *)
    intros s st p [H1 H2] Ha Hst. destruct (prepare_close_log s st p) as [Hs [key Hl]].
    unfold log_inv. rewrite Hs, Hl. split; [intros E; congruence|].
    right. exists (w_log s), (true, ws_OpcodeClose, p, key). repeat split; auto.
  - (* P_leave *) intros s st Hi Hst. apply (set_state_same_inv s st Hi). intros E. contradiction.
  - (* P_io *) intros s c t _ _. apply log_inv_ext; reflexivity.
  - (* P_rpend *) intros s k. apply log_inv_ext; reflexivity.
  - (* P_max *) intros s n. apply log_inv_ext; reflexivity.
  - (* P_wfail *) intros s n _. apply log_inv_ext; reflexivity.
Qed.

(* op_ok at the parameters of wire_preserved, again by computation *)
Definition healthy_op (o : wsop) : Prop := match o with WWFail _ => False | _ => True end.

Lemma init_wire max keys : wire_inv (ws_init max keys).
Proof.
  unfold wire_inv, healthy, ws_init; cbn. split; [lia|]. exists O. cbn. repeat split; auto.
Qed.

Lemma wire_preserved : preserved wire_inv (fun _ => True) False.
Proof.
  split.
  - (* P_flush *) intros async s Hi. destruct (flush_gen_healthy async s Hi) as (d & t & -> & _ & _ & Hw'). exact Hw'.
  - (* P_queue *) intros s fin op p Hi _ _. apply queue_frame_wire, Hi.
  - (* P_pong *) exact I.
  - (* P_close *) intros s st p Hi _ _. apply queue_frame_wire. exact (same_out_wire _ _ (set_state_out s st) Hi).
  - (* P_leave *) intros s st Hi _. exact (same_out_wire _ _ (set_state_out s st) Hi).
  - (* P_io *) intros s c t A B. apply same_out_wire. repeat split; assumption.
  - (* P_rpend *) intros s k. apply same_out_wire, set_rpend_out.
  - (* P_max *) intros s n. apply same_out_wire. repeat split.
  - (* P_wfail *) intros s n [].
Qed.

(* an entry of the log as a caller can produce it *)
Definition entry_ok (e : entry) : Prop :=
  let '(fin, op, p, key) := e in zlen p < WsFrame.two63 /\ zlen key = 4.

Theorem write_refused_when_not_active s async mt payload :
  w_state s <> ws_StateActive -> zlen payload <= w_max s ->
  wsstep s (WWrite async mt payload) = (s, [EWrite eCancelled]).
Proof.
  intros Hs Hl. cbn [wsstep]. replace (zlen payload >? w_max s) with false by lia.
  replace (w_state s =? ws_StateActive) with false by lia. reflexivity.
Qed.

(* LenCodecProofs.flat and evs_ok word for word, so tr_read_spec and flat_bytes apply as they are; they exist twice
   because the statements of C06 and of C19 each name their own *)
Definition wflat (q : list inev) : list Z := concat (map (fun e => match e with InData l => l | _ => [] end) q).
Definition wevs_ok (q : list inev) : Prop := Forall (fun e => match e with InData l => bytes l | _ => True end) q.
Definition wstream (c : codec) (t : tr) : list Z := unread c ++ wflat (tr_in t).

Lemma ws_feed_read c t t1 w : cinv c -> bytes (unread c) -> wevs_ok (tr_in t) -> tr_read t = (t1, RGot w) ->
  cinv (feed c w) /\ bytes (unread (feed c w)) /\ wevs_ok (tr_in t1) /\ c_max (feed c w) = c_max c /\
  wstream (feed c w) t1 = wstream c t /\ (length (tr_in t1) < length (tr_in t))%nat.
Proof.
  intros Hc Hb Ht Er. destruct (tr_read_spec _ _ _ Ht Er) as (Hq & Hfl & Hw & Hlen).
  destruct (feed_spec c w Hc) as (Hc2 & Hu2 & Hm2). unfold wstream. rewrite Hu2, <- app_assoc.
  split; [exact Hc2|]. split; [apply bytes_app; assumption|]. split; [exact Hq|]. split; [exact Hm2|].
  split; [f_equal; symmetry; exact Hfl|exact Hlen].
Qed.

Theorem ws_read_loop_spec fuel : forall c t async c' t' r,
  cinv c -> bytes (unread c) -> wevs_ok (tr_in t) -> (length (tr_in t) < fuel)%nat ->
  ws_read_loop fuel c t async = (c', t', r) ->
  cinv c' /\ bytes (unread c') /\ wevs_ok (tr_in t') /\ c_max c' = c_max c /\
  match r with
  | RdFrame f => parse1 (c_max c) (wstream c t) = PFrame f (wstream c' t')
  | _ => wstream c' t' = wstream c t
  end.
Proof.
  induction fuel as [|f IH]; intros c t async c' t' r Hc Hb Ht Hf H; [lia|].
  cbn [ws_read_loop] in H. destruct (decode c) as [c1 dr] eqn:Ed.
  destruct (decode_spec c c1 dr Hc Hb Ed) as (Hc1 & Hm1 & Hsp).
  destruct (parse1 (c_max c) (unread c)) as [| |raw rest] eqn:Ep; destruct Hsp as [-> Hu].
  - (* need more *)
    destruct (tr_read t) as [t1 rr] eqn:Er. rewrite <- Hu in Hb.
    destruct (tr_read_spec _ _ _ Ht Er) as (Hq & Hrr).
    assert (Hs : wstream c1 t = wstream c t) by (unfold wstream; rewrite Hu; reflexivity).
    assert (Hstop : wflat (tr_in t1) = wflat (tr_in t) ->
                    cinv c1 /\ bytes (unread c1) /\ wevs_ok (tr_in t1) /\ c_max c1 = c_max c /\ wstream c1 t1 = wstream c t).
    { intros Hfl. rewrite <- Hs. unfold wstream. rewrite Hfl. auto. }
    destruct rr as [w| | |].
    + (* bytes *)
      destruct (ws_feed_read _ _ _ _ Hc1 Hb Ht Er) as (Hc2 & Hb2 & Ht2 & Hm2 & Hs2 & Hlen).
      rewrite <- Hs, <- Hs2, <- Hm1, <- Hm2. apply (IH _ _ async); [assumption..|lia|exact H].
    + (* EOF *) inversion H; subst. apply Hstop, Hrr.
    + (* error *) inversion H; subst. apply Hstop, Hrr.
    + (* would block *) destruct async; inversion H; subst; apply Hstop, Hrr.
  - (* too big *) inversion H; subst. unfold wstream. rewrite Hu. auto.
  - (* a frame *)
    inversion H; subst. split; [exact Hc1|]. split; [exact (parse1_bytes _ _ _ _ Hb Ep)|]. split; [exact Ht|].
    split; [exact Hm1|]. apply parse1_app, Ep.
Qed.

(* handle_frame's verdict as one boolean (frame_err_violates): the tests of verify_frame, then those of handle_control or
   handle_data *)
Definition mviolates (f : list Z) : bool :=
  is_rsv1 f || is_rsv2 f || is_rsv3 f || is_masked f ||
  (if Opcode_IsControl (opcode_of f) then negb (is_fin f) || (payload_length f >? ws_MaxControlFramePayloadLength)
   else Opcode_IsReserved (opcode_of f)).

Lemma frame_err_violates f : frame_err f <> eNone <-> mviolates f = true.
Proof.
  unfold frame_err, mviolates, verify_frame, handle_data.
  destruct (is_rsv1 f || is_rsv2 f || is_rsv3 f); [split; [reflexivity|discriminate]|].
  destruct (is_masked f); [split; [reflexivity|discriminate]|].
  cbn [orb negb Z.eqb eNone].
  destruct (Opcode_IsControl (opcode_of f)) eqn:Ec.
  - rewrite (control_err_ok f Ec). apply Bool.not_false_iff_true.
  - destruct (Opcode_IsReserved (opcode_of f)).
    + split; [reflexivity|discriminate].
    + split; [intros C; elim C; reflexivity|discriminate].
Qed.

Lemma rsv_bits b : is_byte b ->
  negb (Z.land b 64 =? 0) || negb (Z.land b 32 =? 0) || negb (Z.land b 16 =? 0) = negb ((b / 16) mod 8 =? 0).
Proof.
  intros H. apply Bool.eqb_prop. revert b H.
  apply (byte_sweep (fun b => Bool.eqb (negb (Z.land b 64 =? 0) || negb (Z.land b 32 =? 0) || negb (Z.land b 16 =? 0))
                                       (negb ((b / 16) mod 8 =? 0)))).
  vm_compute. reflexivity.
Qed.

Lemma opcode_control op : Opcode_IsControl op = is_control_op op.
Proof.
  unfold Opcode_IsControl, Opcode_IsPing, Opcode_IsPong, Opcode_IsClose, is_control_op.
  destruct (op =? 8), (op =? 9), (op =? 10); reflexivity.
Qed.

Lemma opcode_reserved op : Opcode_IsReserved op = is_reserved_op op.
Proof. unfold Opcode_IsReserved, is_reserved_op. rewrite !negb_orb. reflexivity. Qed.

Lemma control_not_reserved op : is_control_op op = true -> is_reserved_op op = false.
Proof.
  unfold is_control_op, is_reserved_op. intros H. apply negb_false_iff.
  rewrite <- !orb_assoc in *. rewrite H. rewrite !orb_true_r. reflexivity.
Qed.

Lemma frame_fields f : bytes f ->
  is_rsv1 f || is_rsv2 f || is_rsv3 f = negb (r_rsv f =? 0) /\ is_masked f = r_masked f /\
  opcode_of f = r_op f /\ is_fin f = r_fin f.
Proof.
  intros Hb. pose proof (bytes_nth 0 f Hb) as Hb0. pose proof (bytes_nth 1 f Hb) as Hb1.
  split; [exact (rsv_bits _ Hb0)|]. split; [exact (land128 _ Hb1)|].
  split; [apply land15|exact (land128 _ Hb0)].
Qed.

Lemma payload_length_whole f : bytes f -> 2 + sp_ext f <= zlen f -> sp_plen f < WsFrame.two63 -> payload_length f = sp_plen f.
Proof.
  intros Hb Hlen Hpl. pose proof (plen_prefix f Hb (zlen f) Hlen) as H. rewrite ztake_all in H by lia.
  rewrite H. unfold int_of_u64. replace (sp_plen f >=? WsFrame.two63) with false by lia. reflexivity.
Qed.

