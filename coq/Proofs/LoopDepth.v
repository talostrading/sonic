(* C14: nesting depth of completion callbacks.  For handler programs that only start operations on open, pollable
   objects, at most max 0 (MaxCallbackDispatch - d0) + 1 callbacks are on the stack, d0 being IO.Dispatched when the
   script line began; when the work list is empty again the depth is 0 and IO.Dispatched is d0.  The invariant splits
   the stack as
     H ++ A ++ B,  H = [] or one counted invocation about to run (only produced while Dispatched < limit),
                   A = start actions and the IEnd markers of the callbacks on the stack (at most one uncounted),
                   B = what the poller still has to do (no IEnd: B only runs when no callback is on the stack). *)
From Sonic Require Import Base.Prelude Gen.Consts Model.Loop Proofs.LoopMachine.
Local Open Scope Z_scope.

Definition okp (o : obj) : Prop := o_closed o = false /\ ctl_ok o = true.
Definition pollable (s : loop) : Prop := Forall (fun p => okp (snd p)) (l_objs s).
Definition is_start (a : action) : Prop := match a with AStart _ _ _ _ _ => True | _ => False end.
Definition chain_progs (s : loop) : Prop := Forall (fun p => Forall is_start (snd p)) (l_progs s).
Definition cb_le (b : Z) (e : lev) : Prop := match e with LCb _ _ _ d => d <= b | _ => True end.
Definition log_le (b : Z) (s : loop) : Prop := Forall (cb_le b) (l_log s).

Lemma okp_same o o' : o_closed o' = o_closed o -> o_kind o' = o_kind o -> okp o -> okp o'.
Proof. unfold okp, ctl_ok. intros -> ->. auto. Qed.

(* what a step that neither invokes nor ends a callback leaves alone *)
Definition frame (b : Z) (s s' : loop) : Prop :=
  l_depth s' = l_depth s /\ l_disp s' = l_disp s /\ l_progs s' = l_progs s /\
  pollable s' /\ (log_le b s -> log_le b s').

Lemma frame_refl b s : pollable s -> frame b s s.
Proof. intros H. unfold frame. auto 10. Qed.

Lemma frame_trans {b s s1 s2} : frame b s s1 -> frame b s1 s2 -> frame b s s2.
Proof.
  intros (Dep1 & Disp1 & Pr1 & Pol1 & Log1) (Dep2 & Disp2 & Pr2 & Pol2 & Log2). unfold frame.
  rewrite Dep2, Disp2, Pr2. auto 10.
Qed.

Lemma frame_same b s s' :
  l_depth s' = l_depth s -> l_disp s' = l_disp s -> l_progs s' = l_progs s ->
  l_log s' = l_log s -> pollable s' -> frame b s s'.
Proof. intros Dep Disp Pr Log Pol. unfold frame, log_le. rewrite Log. auto 10. Qed.

Lemma frame_put b s i o d fo : pollable s -> okp o -> frame b s (put s i o d fo).
Proof. intros Hp Ho. apply frame_same; try reflexivity. apply Forall_update; assumption. Qed.

Lemma frame_tput b s i t d : pollable s -> frame b s (tput s i t d).
Proof. intros Hp. apply frame_same; try reflexivity. exact Hp. Qed.

Lemma frame_add_log b s e : pollable s -> cb_le b e -> frame b s (add_log s e).
Proof.
  intros Hp He. unfold frame, log_le; cbn. repeat (split; [reflexivity|]). split; [exact Hp|].
  intros H. constructor; assumption.
Qed.

Lemma frame_pollable {b s s'} : frame b s s' -> pollable s'.
Proof. intros (_ & _ & _ & H & _). exact H. Qed.

Lemma ends_okp {w cb wr o o' d fo items} : ends w cb wr o o' d fo items -> okp o -> okp o'.
Proof. intros H. pose proof (ends_other H) as V. exact (okp_same o o' (so_closed V) (so_kind V)). Qed.

Lemma schedule_frame b s i o w p wr :
  pollable s -> okp o -> frame b s (fst (schedule s i o w p wr)) /\ snd (schedule s i o w p wr) = [].
Proof.
  intros Hp Ho. split; [|exact (schedule_arms s i o w p wr (proj1 Ho) (proj2 Ho))].
  destruct (schedule_eff s i o w p wr) as (o' & d & fo & items & E & B). rewrite E.
  exact (frame_put b s i o' d fo Hp (ends_okp B Ho)).
Qed.

Lemma fires_okp {w o o' d fo items} : fires w o o' d fo items -> okp (dereg w o) -> okp o'.
Proof. intros [_|p wr o1 d1 fo1 items1 _ B] Ho; [exact Ho|exact (ends_okp B Ho)]. Qed.

Lemma fire_frame b {s i w o o' d fo items} :
  pollable s -> lookup i (l_objs s) = Some o -> fires w (clr w o) o' d fo items -> frame b s (put s i o' (d - 1) fo).
Proof.
  intros Hp Hl B. apply frame_put; [exact Hp|]. apply (fires_okp B).
  destruct w; apply (okp_same o); try reflexivity; exact (Forall_lookup okp Hp Hl).
Qed.

Definition itemB (it : item) : Prop :=
  match it with
  | IAct a => match a with AStart _ _ _ _ _ | AClose _ => False | _ => True end
  | IInvoke _ _ _ _ => True      (* counted or not: the packet conn's deferred completions run through the wrapper *)
  | IEnd _ => False
  | ILog e => match e with LCb _ _ _ _ => False | _ => True end
  | _ => True
  end.
Definition itemA (it : item) : Prop :=
  match it with IAct a => is_start a | IEnd _ => True | _ => False end.

Lemma itemB_opt {items} : opt_invoke items -> Forall itemB items.
Proof. intros [->|(cb & e & n & w & ->)]; repeat constructor. Qed.

Lemma cont_B it : cont it -> itemB it.
Proof.
  destruct it as [a| | | | | | |e| |]; cbn [cont itemB]; try contradiction; try (intros _; exact I). destruct e; auto.
Qed.

(* what the poller runs, an invocation apart, keeps the frame and pushes what the poller may run *)
Lemma step_frame_B b s it :
  pollable s -> itemB it ->
  (exists cb e n w, it = IInvoke cb e n w) \/ frame b s (fst (step s it)) /\ Forall itemB (snd (step s it)).
Proof.
  intros Hp Hb.
  assert (Htail : forall tail, Forall cont tail -> Forall itemB tail) by (intros tail; apply Forall_impl, cont_B).
  assert (Hnote : forall e, note e -> cb_le b e) by (intros []; cbn; tauto).
  induction (step_moves s it) as [it tail Ht|it e s' items Hn _ IH|e|w all i len cb o o' d fo items wr _ _
                                  |it w i o o' d fo items tail Hl _ B Ht|i o _|it i t t' d cb items tail _ _ _ _ Hit Ht
                                  |cb|e|cb err n w|w];
    cbn [fst snd]; cbn [itemB] in Hb; try contradiction (* a start, Close and IEnd are not in B *).
  - (* nothing found, nothing ready *)
    right. split; [apply frame_refl; exact Hp|exact (Htail _ Ht)].
  - (* a note in the log *)
    destruct (IH Hb) as [H|[Hf Hitems]]; [left; exact H|right].
    split; [exact (frame_trans Hf (frame_add_log b s' e (frame_pollable Hf) (Hnote e Hn)))|exact Hitems].
  - (* ILog: B holds no LCb entry *)
    right. split; [apply frame_add_log; [exact Hp|destruct e; try exact I; contradiction]|constructor].
  - (* an interest fires *)
    right. split; [exact (fire_frame b Hp Hl B)|].
    apply Forall_app. split; [exact (itemB_opt (fires_items B))|exact (Htail _ Ht)].
  - (* a timer is stored *)
    right. split; [apply frame_tput; exact Hp|].
    apply Forall_app. split; [destruct Hit as [-> | ->]; repeat constructor|exact (Htail _ Ht)].
  - (* APost *)
    right. split; [apply frame_same; try reflexivity; exact Hp|constructor].
  - (* the posted handlers *)
    right. split; [apply frame_same; try reflexivity; exact Hp|].
    induction (l_posts s); cbn; constructor; [exact I|assumption].
  - (* IInvoke *) left. exists cb, err, n, w. reflexivity.
Qed.

Definition headH (s : loop) (H : list item) : Prop :=
  H = [] \/ (l_disp s < sonic_MaxCallbackDispatch /\ exists c e n, H = [IInvoke c e n true]).

Lemma do_action_frame_start b s w all i len cb :
  pollable s ->
  frame b s (fst (do_action s (AStart w all i len cb))) /\ headH s (snd (do_action s (AStart w all i len cb))).
Proof.
  intros Hp. destruct (lookup i (l_objs s)) as [o|] eqn:Hl.
  2:{ rewrite (do_action_none s (AStart w all i len cb) Hl). split; [apply frame_refl; exact Hp|left; reflexivity]. }
  rewrite (do_action_start w all len cb Hl). cbv zeta.
  set (p := mkop cb all len 0 false). set (s0 := note_overlap (add_log s (LStart cb i w all len)) (ev w o)).
  assert (Ho0 : okp (stash w o (Some p))).
  { destruct w; apply (okp_same o); try reflexivity; exact (Forall_lookup okp Hp Hl). }
  assert (Hf0 : frame b s s0).
  { eapply frame_trans; [apply (frame_add_log b s (LStart cb i w all len)); [exact Hp|exact I]|].
    apply frame_same; try reflexivity. exact Hp. }
  pose proof (frame_pollable Hf0) as Hp0.
  destruct (l_disp s <? sonic_MaxCallbackDispatch) eqn:Ed.
  - destruct (io_now_eff 64 (set_obj s0 i (stash w o (Some p))) i w p true _ (lookup_set_obj _ _ _))
      as (o' & d & fo & items & E & B).
    rewrite E, set_obj_put, put_put. cbn [fst snd].
    split; [exact (frame_trans Hf0 (frame_put b s0 i o' _ _ Hp0 (ends_okp B Ho0)))|].
    destruct B as [o1 e n _ _ _|o1 p' _ _ _ _ _ _|o1 _].
    + right. split; [apply Z.ltb_lt; exact Ed|exists cb, e, n; reflexivity].
    + left. reflexivity.
    + left. reflexivity.
  - destruct (schedule_frame b s0 i (stash w o (Some p)) w p false Hp0 Ho0) as [Hf1 Hit].
    split; [exact (frame_trans Hf0 Hf1)|left; exact Hit].
Qed.

Fixpoint cnt (w : bool) (l : list item) : Z :=
  match l with
  | [] => 0
  | IEnd w' :: r => (if Bool.eqb w w' then 1 else 0) + cnt w r
  | _ :: r => cnt w r
  end.

Lemma cnt_app w a b : cnt w (a ++ b) = cnt w a + cnt w b.
Proof. induction a as [|x a IH]; cbn [app cnt]; [lia|]. destruct x; try exact IH. rewrite IH. lia. Qed.

Lemma cnt_acts w l : cnt w (map IAct l) = 0.
Proof. induction l; cbn; auto. Qed.

Lemma itemA_acts l : Forall is_start l -> Forall itemA (map IAct l).
Proof. induction 1; cbn; constructor; auto. Qed.

Section Depth.
Variables d0 bound : Z.
Hypothesis Hbound : Z.max 0 (sonic_MaxCallbackDispatch - d0) + 1 <= bound.

(* cnt true A / cnt false A: the counted / uncounted callbacks on the stack *)
Definition sinv (s : loop) (H A B : list item) : Prop :=
  pollable s /\ chain_progs s /\ log_le bound s /\ Forall itemA A /\ Forall itemB B /\
  l_depth s = cnt true A + cnt false A /\ l_disp s = d0 + cnt true A /\ cnt false A <= 1 /\ headH s H.

Definition settled (s : loop) : Prop :=
  log_le bound s /\ pollable s /\ chain_progs s /\ (l_fuel_out s = false -> l_depth s = 0 /\ l_disp s = d0).

Lemma sinv_frame s s' H A B :
  frame bound s s' -> sinv s [] A B -> (l_disp s' = l_disp s -> headH s' H) -> forall B', Forall itemB B' -> sinv s' H A B'.
Proof.
  intros (Fdep & Fdisp & Fpr & Fp & Flog) (_ & Hpr & Hlog & HA & _ & Hdep & Hdisp & Hunc & _) HH B' HB'.
  unfold sinv, chain_progs. rewrite Fdep, Fdisp, Fpr. auto 12.
Qed.

Lemma progs_chain s cb : chain_progs s -> Forall is_start (prog_of s cb).
Proof.
  intros H. unfold prog_of. destruct (lookup cb (l_progs s)) eqn:E; [|constructor].
  exact (Forall_lookup (Forall is_start) H E).
Qed.

(* the poller's callback (nothing on the stack), or a counted inline completion below the limit *)
Lemma sinv_invoke s H A B cb e n w :
  sinv s H A B -> A = [] \/ (w = true /\ l_disp s < sonic_MaxCallbackDispatch) ->
  sinv (fst (invoke s cb e n w)) [] (snd (invoke s cb e n w) ++ A) B.
Proof.
  intros (Hp & Hpr & Hlog & HA & HB & Hdep & Hdisp & Hunc & _) Hc.
  destruct (invoke_items s cb e n w) as (acts & -> & Hacts).
  assert (Hacts' : Forall itemA acts /\ forall b, cnt b acts = 0).
  { destruct Hacts as [->| ->]; [split; [constructor|reflexivity]|].
    split; [apply itemA_acts, progs_chain, Hpr|intros; apply cnt_acts]. }
  destruct Hacts' as [HA' Hc0].
  unfold sinv, pollable, chain_progs, log_le. rewrite invoke_state, !cnt_app, !Hc0.
  cbn [cnt l_objs l_progs l_log l_depth l_disp].
  split; [exact Hp|]. split; [exact Hpr|]. split.
  { (* The theorem's bound.  The callback is logged at depth cnt true A + cnt false A + 1.  Either A = [], or it is
       counted and d0 + cnt true A = IO.Dispatched < limit, with cnt false A <= 1. *)
    constructor; [|exact Hlog]. cbn [cb_le]. destruct Hc as [->|[-> Hd]]; cbn [cnt] in *; lia. }
  split. { apply Forall_app; split; [apply Forall_app; split; [exact HA'|repeat constructor]|exact HA]. }
  split; [exact HB|].
  destruct Hc as [->|[-> Hd]]; [destruct w|]; cbn [cnt Bool.eqb] in *;
    (split; [lia|]; split; [lia|]; split; [lia|left; reflexivity]).
Qed.

Definition dinv (s : loop) (stk : list item) : Prop := exists H A B, stk = H ++ A ++ B /\ sinv s H A B.

Lemma dinv_step s it rest : dinv s (it :: rest) -> dinv (fst (step s it)) (snd (step s it) ++ rest).
Proof.
  intros (H & A & B & E & Hinv). pose proof Hinv as (Hp & Hpr & Hlog & HA & HB & Hdep & Hdisp & Hunc & HH).
  destruct HH as [->|(Hd & c & e & n & ->)].
  2:{ (* H is a counted inline completion: it runs now *)
      inversion E; subst. exists [], (snd (invoke s c e n true) ++ A), B.
      split; [cbn [step app]; rewrite app_assoc; reflexivity|].
      eapply sinv_invoke; [exact Hinv|right; split; [reflexivity|exact Hd]]. }
  destruct A as [|a A]; cbn [app] in E.
  - (* no callback on the stack: the head of B runs *)
    subst B. inversion HB as [|? ? Hb HB']; subst.
    destruct (step_frame_B bound s it Hp Hb) as [(cb & e & n & w & ->)|[Hf Hit]].
    + (* IInvoke, by the poller: depth 0 -> 1 *)
      cbn [step]. exists [], (snd (invoke s cb e n w) ++ []), rest. split; [rewrite app_nil_r; reflexivity|].
      apply (sinv_invoke s []); [|left; reflexivity].
      apply (sinv_frame s s [] [] (IInvoke cb e n w :: rest));
        [apply frame_refl; exact Hp|exact Hinv|left; reflexivity|exact HB'].
    + (* anything else: what it pushes joins B *)
      exists [], [], (snd (step s it) ++ rest). split; [reflexivity|].
      apply (sinv_frame s _ [] [] (it :: rest)); [exact Hf|exact Hinv|intros _; left; reflexivity|].
      apply Forall_app. split; assumption.
  - (* the head of A runs *)
    inversion E; subst. inversion HA as [|? ? Ha HA']; subst.
    destruct a as [a| |wrapped| | | | | | |]; cbn [itemA] in Ha; try contradiction.
    + (* IAct, a start: A loses it; an inline completion becomes the new H *)
      destruct a; cbn [is_start] in Ha; try contradiction. cbn [step].
      assert (Hinv0 : sinv s [] A B) by (cbn [cnt] in Hdep, Hdisp, Hunc; unfold sinv, headH; auto 12).
      destruct (do_action_frame_start bound s write all o len cb Hp) as [Hf Hit].
      exists (snd (do_action s (AStart write all o len cb))), A, B. split; [reflexivity|].
      apply (sinv_frame s _ _ A B); [exact Hf|exact Hinv0| |exact HB].
      intros Hd. unfold headH. rewrite Hd. exact Hit.
    + (* IEnd: the callback on top of the stack returns *)
      cbn [step fst snd app]. exists [], A, B. split; [reflexivity|]. cbn [cnt] in Hdep, Hdisp, Hunc.
      unfold sinv, pollable, chain_progs, log_le.
      destruct wrapped; cbn [Bool.eqb l_objs l_progs l_log l_depth l_disp set_depth set_disp] in *;
        (split; [exact Hp|]; split; [exact Hpr|]; split; [exact Hlog|]; split; [exact HA'|]; split; [exact HB|];
         split; [lia|]; split; [lia|]; split; [lia|left; reflexivity]).
Qed.

Theorem exec_depth fuel : forall s H A B, sinv s H A B -> settled (exec fuel s (H ++ A ++ B)).
Proof.
  intros s H A B Hinv. apply (exec_ind dinv settled); [exact dinv_step| | |exists H, A, B; auto].
  - intros s' (H' & A' & B' & E & (Hp & Hpr & Hlog & _ & _ & Hdep & Hdisp & _)).
    symmetry in E. apply app_eq_nil in E. destruct E as [-> E]. apply app_eq_nil in E. destruct E as [-> ->].
    split; [exact Hlog|]. split; [exact Hp|]. split; [exact Hpr|]. intros _. cbn in Hdep, Hdisp. lia.
  - intros s' it rest (_ & _ & _ & _ & (Hp & Hpr & Hlog & _)).
    split; [exact Hlog|]. split; [exact Hp|]. split; [exact Hpr|]. cbn. discriminate.
Qed.

End Depth.

Definition chain_lop (o : lop) : Prop :=
  match o with
  | LObj _ k => k <> KReg /\ k <> KDead
  | LPeer _ PKill => False
  | LProg _ acts => Forall is_start acts
  | LDepth n => 0 <= n
  | LAct a => match a with AClose _ => False | _ => True end
  | _ => True
  end.

Definition dbound : Z := sonic_MaxCallbackDispatch + 1.

Definition idle (s : loop) : Prop :=
  pollable s /\ chain_progs s /\ l_depth s = 0 /\ 0 <= l_disp s /\ log_le dbound s.

Fixpoint no_fuel_out (s : loop) (ops : list lop) : Prop :=
  match ops with [] => True | o :: r => l_fuel_out (lstep s o) = false /\ no_fuel_out (lstep s o) r end.

Lemma settled_idle d0 s : 0 <= d0 -> settled d0 dbound s -> l_fuel_out s = false -> idle s.
Proof.
  intros Hd (A & B & C & D) Hf. destruct (D Hf) as [D1 D2]. unfold idle. rewrite D1, D2. auto 10.
Qed.

Lemma itemB_batch batch : Forall itemB (map IPollEntry batch).
Proof. induction batch; cbn; constructor; [exact I|assumption]. Qed.

Theorem lstep_idle s o : idle s -> chain_lop o -> l_fuel_out (lstep s o) = false -> idle (lstep s o).
Proof.
  intros (Hp & Hpr & Hdep & Hdisp & Hlog) Hc. rewrite lstep_eq. cbv zeta. set (s1 := refill s).
  assert (Hp1 : pollable s1) by exact Hp.
  assert (Hb : Z.max 0 (sonic_MaxCallbackDispatch - l_disp s1) + 1 <= dbound).
  { change (l_disp s1) with (l_disp s). unfold dbound, sonic_MaxCallbackDispatch. lia. }
  assert (Hd0 : 0 <= l_disp s1) by exact Hdisp.
  (* d0 is IO.Dispatched as the line finds it *)
  assert (Hexec : forall A B, Forall itemA A -> Forall itemB B -> cnt true A = 0 -> cnt false A = 0 ->
            l_fuel_out (exec exec_fuel s1 (A ++ B)) = false -> idle (exec exec_fuel s1 (A ++ B))).
  { intros A B HA HB C1 C2 Hf. apply (settled_idle (l_disp s1)); [exact Hd0| |exact Hf].
    apply (exec_depth (l_disp s1) dbound Hb exec_fuel s1 [] A B).
    unfold sinv. rewrite C1, C2. split; [exact Hp1|]. split; [exact Hpr|]. split; [exact Hlog|]. split; [exact HA|].
    split; [exact HB|]. split; [exact Hdep|]. split; [lia|]. split; [lia|left; reflexivity]. }
  destruct o; cbn [chain_lop] in Hc; intros Hf.
  - (* LObj: of a pollable kind *)
    unfold idle. split; [|auto].
    unfold pollable, set_obj; cbn. apply Forall_update; [exact Hp|].
    unfold okp, new_obj, ctl_ok; cbn. destruct Hc as [Hc1 Hc2]. destruct k; auto; contradiction.
  - (* LTimer *) unfold idle; auto 10.
  - (* LProg: of starts only *)
    unfold idle. split; [exact Hp|]. split; [|auto].
    unfold chain_progs; cbn. apply (Forall_update (Forall is_start)); assumption.
  - (* LDepth *) unfold idle; cbn. auto 10.
  - (* LPeer: anything but PKill keeps the kind *)
    destruct (lookup i (l_objs s1)) as [ob|] eqn:Hl; [|unfold idle; auto 10].
    unfold idle. split; [|auto]. apply Forall_update; [exact Hp|].
    pose proof (Forall_lookup okp Hp1 Hl) as Ho.
    apply (okp_same ob); [exact (sf_closed (peer_obj_flags p ob))| |exact Ho].
    destruct p; try contradiction; try reflexivity. cbn [peer_obj]. destruct (o_kind ob); reflexivity.
  - (* LSleep *) unfold idle; auto 10.
  - (* LPoll: the batch is B *)
    apply (Hexec [] (map IPollEntry batch)); try reflexivity; [constructor|apply itemB_batch|exact Hf].
  - (* LAct: a start is A, every other action but Close is B *)
    destruct a; try contradiction.
    1: apply (Hexec [IAct (AStart write all o len cb)] []); try reflexivity; [repeat constructor|constructor|exact Hf].
    all: apply (Hexec [] [IAct _]); try reflexivity; [constructor|repeat constructor|exact Hf].
Qed.
