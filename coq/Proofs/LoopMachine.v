(* Shared by the event-loop proofs.  Every function of Model/Loop.v that touches an object gets one equation
   f .. = (put s i o' d fo, items)  - the object stored under i, the pending counter moved by d, the fuel flag - with
   what is known about o', d and items ([ends]); timers likewise with [tput].  An invariant then needs one lemma about
   [put] and one about [ends], and the functions are unfolded here only, except where a statement needs what the
   relations do not record: Properties/C01.v (a stale entry, the tail of a ready entry, Cancel's error code), C04.v (the
   expiry time set by sched_once; when a timer's entry fires is [poll_entry_timer]), and LoopOnce.timer_unset_keep /
   sched_once_side, whose statements have no lookup premise.
   The work-list machine is the iteration of [step], with one induction principle, [exec_ind]; what one step can do
   is the relation [moves] ([step_moves]), and an invariant goes through the machine by one induction on it. *)
From Sonic Require Import Base.Prelude Gen.Consts Model.Loop.
Local Open Scope Z_scope.

Lemma lookup_update_same {A} i (v : A) l : lookup i (update i v l) = Some v.
Proof.
  induction l as [|[k x] r IH]; cbn [update lookup]; [rewrite Z.eqb_refl; reflexivity|].
  destruct (i =? k) eqn:E; cbn [lookup]; [rewrite Z.eqb_refl; reflexivity|rewrite E; exact IH].
Qed.

Lemma update_update {A} i (v v' : A) l : update i v' (update i v l) = update i v' l.
Proof.
  induction l as [|[k x] r IH]; cbn [update]; [rewrite Z.eqb_refl; reflexivity|].
  destruct (i =? k) eqn:E; cbn [update]; [rewrite Z.eqb_refl; reflexivity|rewrite E, IH; reflexivity].
Qed.

Lemma update_lookup {A i} {v : A} {l} : lookup i l = Some v -> update i v l = l.
Proof.
  induction l as [|[k x] r IH]; cbn [update lookup]; [discriminate|].
  destruct (i =? k) eqn:E; intros H; [inversion H; subst; apply Z.eqb_eq in E; subst; reflexivity|rewrite (IH H); reflexivity].
Qed.

Lemma Forall_lookup {A} (P : A -> Prop) {l i v} : Forall (fun p : Z * A => P (snd p)) l -> lookup i l = Some v -> P v.
Proof.
  induction l as [|[k x] r IH]; cbn [lookup]; intros HF H; [discriminate|].
  inversion HF as [|? ? Hx Hr]; subst. destruct (i =? k); [inversion H; subst; exact Hx|auto].
Qed.

Lemma Forall_update {A} (P : A -> Prop) l i v :
  Forall (fun p : Z * A => P (snd p)) l -> P v -> Forall (fun p : Z * A => P (snd p)) (update i v l).
Proof.
  induction l as [|[k x] r IH]; cbn [update]; intros HF H; [constructor; [exact H|constructor]|].
  inversion HF as [|? ? Hx Hr]; subst. destruct (i =? k); constructor; auto.
Qed.

Lemma lookup_set_obj s i o : lookup i (l_objs (set_obj s i o)) = Some o.
Proof. apply lookup_update_same. Qed.

(* the library's part of an object; e_rq .. e_wroom is the kernel's *)
Record same_user (o o' : obj) : Prop := {
  su_kind : o_kind o' = o_kind o;  su_closed : o_closed o' = o_closed o;
  su_evR : o_evR o' = o_evR o;  su_evW : o_evW o' = o_evW o;
  su_rd : o_rd o' = o_rd o;  su_wr : o_wr o' = o_wr o;  su_reg : o_reg o' = o_reg o }.
Arguments su_kind {o o'} _.  Arguments su_closed {o o'} _.  Arguments su_evR {o o'} _.  Arguments su_evW {o o'} _.
Arguments su_rd {o o'} _.  Arguments su_wr {o o'} _.  Arguments su_reg {o o'} _.

Lemma same_user_refl o : same_user o o.
Proof. split; reflexivity. Qed.

Lemma sys_read_user o n : same_user o (fst (sys_read o n)).
Proof.
  unfold sys_read.
  destruct (o_closed o || _); [split; reflexivity|].
  destruct (match o_kind o with KDead => true | _ => false end); [split; reflexivity|].
  destruct (match o_kind o with KLsn => true | _ => false end); [destruct (0 <? e_rq o); split; reflexivity|].
  destruct (0 <? e_rq o); [split; reflexivity|].
  destruct (e_rst o); [split; reflexivity|].
  destruct (o_kind o); try (split; reflexivity); destruct (e_reof o); split; reflexivity.
Qed.

Lemma sys_write_user o n : same_user o (fst (sys_write o n)).
Proof.
  unfold sys_write.
  destruct (o_closed o || _); [split; reflexivity|].
  destruct (e_rst o); [split; reflexivity|].
  destruct (e_wdead o); [split; reflexivity|].
  destruct (e_wroom o <? 0); [split; reflexivity|].
  destruct (e_wroom o =? 0); split; reflexivity.
Qed.

Lemma sys_rw_user (w : bool) o n : same_user o (fst (if w then sys_write o n else sys_read o n)).
Proof. destruct w; [apply sys_write_user|apply sys_read_user]. Qed.

Definition ev (w : bool) (o : obj) : bool := if w then o_evW o else o_evR o.
Definition slot (w : bool) (o : obj) : option opst := if w then o_wr o else o_rd o.
Definition stash (w : bool) (o : obj) (r : option opst) : obj :=
  if w then with_wr o r (o_evW o) (o_reg o) else with_rd o r (o_evR o) (o_reg o).
Definition clr (w : bool) (o : obj) : obj :=
  if w then with_wr o (o_wr o) false (o_reg o) else with_rd o (o_rd o) false (o_reg o).
(* onRead / onWrite first leave the registry when no interest is left *)
Definition dereg (w : bool) (o : obj) : obj :=
  let reg := if o_evR o || o_evW o then o_reg o else false in
  if w then with_wr o (o_wr o) (o_evW o) reg else with_rd o (o_rd o) (o_evR o) reg.
Definition nbits (o : obj) : Z := (if o_evR o then 1 else 0) + (if o_evW o then 1 else 0).
Definition shut (o : obj) : obj :=
  mkobj (o_kind o) true false false (o_rd o) (o_wr o) false (e_rq o) (e_reof o) (e_rst o) (e_wdead o) (e_wroom o).

Lemma su_ev w {o o'} : same_user o o' -> ev w o' = ev w o.
Proof. intros U. destruct w; [exact (su_evW U)|exact (su_evR U)]. Qed.
Lemma su_slot w {o o'} : same_user o o' -> slot w o' = slot w o.
Proof. intros U. destruct w; [exact (su_wr U)|exact (su_rd U)]. Qed.

Lemma del_interest_eq s i o w :
  del_interest s i o w = (if ev w o then set_pending s (l_pending s - 1) else s, clr w o).
Proof.
  unfold del_interest, ev, clr. destruct w.
  - destruct (o_evW o) eqn:E; [reflexivity|]. destruct o; cbn in E; subst; reflexivity.
  - destruct (o_evR o) eqn:E; [reflexivity|]. destruct o; cbn in E; subst; reflexivity.
Qed.

Definition put (s : loop) (i : Z) (o : obj) (d : Z) (fo : bool) : loop :=
  mkloop (l_pending s + d) (l_disp s) (l_posts s) (update i o (l_objs s)) (l_tmrs s) (l_progs s) (l_now s) (l_depth s)
    (l_log s) (l_fuel_out s || fo) (l_budget s) (l_overlap s).

Ltac fields :=
  unfold set_obj, set_tmr, set_pending;
  cbn [l_pending l_disp l_posts l_objs l_tmrs l_progs l_now l_depth l_log l_fuel_out l_budget l_overlap] in *.

Lemma put_eq s i o d fo p f :
  p = l_pending s + d -> f = l_fuel_out s || fo ->
  mkloop p (l_disp s) (l_posts s) (update i o (l_objs s)) (l_tmrs s) (l_progs s) (l_now s) (l_depth s) (l_log s) f
    (l_budget s) (l_overlap s) = put s i o d fo.
Proof. intros -> ->. reflexivity. Qed.

Lemma set_obj_put s i o : set_obj s i o = put s i o 0 false.
Proof. apply put_eq; [lia|symmetry; apply orb_false_r]. Qed.

Lemma set_pending_put s i o p : set_pending (set_obj s i o) p = put s i o (p - l_pending s) false.
Proof. fields. apply put_eq; [lia|symmetry; apply orb_false_r]. Qed.

Lemma put_put s i o1 d1 f1 o2 d2 f2 : put (put s i o1 d1 f1) i o2 d2 f2 = put s i o2 (d1 + d2) (f1 || f2).
Proof. unfold put. fields. rewrite update_update, Z.add_assoc, orb_assoc. reflexivity. Qed.

Lemma out_of_fuel_put {s i o} : lookup i (l_objs s) = Some o -> out_of_fuel s = put s i o 0 true.
Proof.
  intros H. unfold out_of_fuel, put. rewrite (update_lookup H), Z.add_0_r, orb_true_r. reflexivity.
Qed.

(* what no way of ending touches *)
Record same_other (w : bool) (o o' : obj) : Prop := {
  so_kind : o_kind o' = o_kind o;  so_closed : o_closed o' = o_closed o;
  so_ev : ev (negb w) o' = ev (negb w) o;  so_slot : slot (negb w) o' = slot (negb w) o }.
Arguments so_kind {w o o'} _.  Arguments so_closed {w o o'} _.  Arguments so_ev {w o o'} _.  Arguments so_slot {w o o'} _.

Lemma same_user_other w {o o'} : same_user o o' -> same_other w o o'.
Proof. intros U. split; [exact (su_kind U)|exact (su_closed U)|exact (su_ev _ U)|exact (su_slot _ U)]. Qed.

Lemma same_other_trans {w o o1 o2} : same_other w o o1 -> same_other w o1 o2 -> same_other w o o2.
Proof.
  intros V W. split; [rewrite (so_kind W); exact (so_kind V)|rewrite (so_closed W); exact (so_closed V)
                     |rewrite (so_ev W); exact (so_ev V)|rewrite (so_slot W); exact (so_slot V)].
Qed.

(* How an operation with callback cb on direction w of o ends, until the poller reports it again: the object left
   behind, the change of the pending counter, fuel out, the items pushed. *)
Inductive ends (w : bool) (cb : Z) (wr : bool) (o : obj) : obj -> Z -> bool -> list item -> Prop :=
| Completed o' e n :
    same_other w o o' -> ev w o' = ev w o -> o_reg o' = o_reg o ->
    ends w cb wr o o' 0 false [IInvoke cb e n wr]
| Armed o' p' :
    same_other w o o' -> o_closed o = false -> ev w o' = true -> o_reg o' = true -> slot w o' = Some p' -> op_cb p' = cb ->
    ends w cb wr o o' (if ev w o then 0 else 1) false []
| Dropped o' : same_user o o' -> ends w cb wr o o' 0 true [].
Arguments Completed {w cb wr o o'} e n _ _ _.
Arguments Armed {w cb wr o o'} p' _ _ _ _ _ _.
Arguments Dropped {w cb wr o o'} _.

Lemma ends_other {w cb wr o o' d fo items} : ends w cb wr o o' d fo items -> same_other w o o'.
Proof. intros [o1 e n H _ _|o1 p' H _ _ _ _ _|o1 U]; [exact H|exact H|exact (same_user_other w U)]. Qed.

Lemma completed_same_user {w} cb wr {o o'} e n : same_user o o' -> ends w cb wr o o' 0 false [IInvoke cb e n wr].
Proof. intros U. exact (Completed e n (same_user_other w U) (su_ev w U) (su_reg U)). Qed.

Lemma ends_user {w cb wr o o1 o' d fo items} : same_user o o1 -> ends w cb wr o1 o' d fo items -> ends w cb wr o o' d fo items.
Proof.
  intros U H. pose proof (same_user_other w U) as V.
  destruct H as [o2 e n W Hev Hreg|o2 p' W Hc Hev Hreg Hs Hcb|o2 U2].
  - apply Completed; [exact (same_other_trans V W)|rewrite Hev; exact (su_ev w U)|rewrite Hreg; exact (su_reg U)].
  - rewrite (su_ev w U).
    apply (Armed p'); try assumption; [exact (same_other_trans V W)|rewrite <- (su_closed U); exact Hc].
  - apply Dropped. destruct U, U2. split; congruence.
Qed.

Definition opt_invoke (items : list item) : Prop := items = [] \/ exists cb e n wr, items = [IInvoke cb e n wr].

Lemma ends_items {w cb wr o o' d fo items} : ends w cb wr o o' d fo items -> opt_invoke items.
Proof. intros H. destruct H; [right; repeat eexists|left; reflexivity|left; reflexivity]. Qed.

Lemma schedule_eff s i o w p wr :
  exists o' d fo items, schedule s i o w p wr = (put s i o' d fo, items) /\ ends w (op_cb p) wr o o' d fo items.
Proof.
  unfold schedule. cbv zeta. change (op_cb (set_wrapped p wr)) with (op_cb p). fold (ev w o).
  set (p1 := set_wrapped p wr). set (o1 := if w then with_wr o (Some p1) true true else with_rd o (Some p1) true true).
  assert (Harm : o_closed o = false -> ends w (op_cb p) wr o o1 (if ev w o then 0 else 1) false []).
  { intros Hc. apply (Armed p1); try (destruct w; reflexivity); [split; destruct w; reflexivity|exact Hc]. }
  destruct (o_closed o) eqn:Ec.
  - exists o, 0, false, [IInvoke (op_cb p) xEOF 0 wr].
    split; [rewrite set_obj_put; reflexivity|apply completed_same_user, same_user_refl].
  - specialize (Harm eq_refl). destruct (ev w o) eqn:Eb.
    + exists o1, 0, false, []. split; [rewrite set_obj_put; reflexivity|exact Harm].
    + destruct (ctl_ok o).
      * (* epoll accepts the descriptor *)
        exists o1, 1, false, []. split; [rewrite set_pending_put; do 2 f_equal; lia|exact Harm].
      * (* epoll refuses *)
        exists (stash w o (Some p1)), 0, false, [IInvoke (op_cb p) xEPERM (op_sofar p1) wr].
        split; [rewrite set_obj_put; reflexivity|].
        apply Completed; try (destruct w; reflexivity). split; destruct w; reflexivity.
Qed.

Lemma schedule_arms s i o w p wr : o_closed o = false -> ctl_ok o = true -> snd (schedule s i o w p wr) = [].
Proof. intros Hc Hk. unfold schedule. rewrite Hc, Hk. destruct (if w then o_evW o else o_evR o); reflexivity. Qed.

Lemma io_now_none {fuel s i w p wr} :
  lookup i (l_objs s) = None -> io_now fuel s i w p wr = (match fuel with O => out_of_fuel s | S _ => s end, []).
Proof. intros H. destruct fuel; cbn [io_now]; rewrite ?H; reflexivity. Qed.

Lemma io_now_eff fuel : forall s i w p wr o, lookup i (l_objs s) = Some o ->
  exists o' d fo items, io_now fuel s i w p wr = (put s i o' d fo, items) /\ ends w (op_cb p) wr o o' d fo items.
Proof.
  induction fuel as [|f IH]; intros s i w p wr o Hl; cbn [io_now].
  - exists o, 0, true, []. split; [rewrite (out_of_fuel_put Hl); reflexivity|apply Dropped, same_user_refl].
  - rewrite Hl. pose proof (sys_rw_user w o (op_len p - op_sofar p)) as Hu.
    destruct (if w then sys_write o (op_len p - op_sofar p) else sys_read o (op_len p - op_sofar p)) as [o1 r]. cbn [fst] in Hu.
    assert (Hdone : forall e n, exists o' d fo items,
              (set_obj s i o1, [IInvoke (op_cb p) e n wr]) = (put s i o' d fo, items) /\ ends w (op_cb p) wr o o' d fo items).
    { intros e n. exists o1, 0, false, [IInvoke (op_cb p) e n wr].
      split; [rewrite set_obj_put; reflexivity|exact (completed_same_user _ _ e n Hu)]. }
    destruct r as [n| | |e].
    + (* SGot: done, or the *All flavour goes round again *)
      destruct (op_all p && negb (op_sofar p + n =? op_len p) && negb (is_pkt o)); [|apply Hdone].
      destruct (IH (set_obj s i o1) i w (set_sofar p (op_sofar p + n)) wr o1 (lookup_set_obj s i o1))
        as (o' & d & fo & items & E & B).
      rewrite E, set_obj_put, put_put. exists o', (0 + d), (false || fo), items. split; [reflexivity|exact (ends_user Hu B)].
    + (* SEof *) apply Hdone.
    + (* SWouldBlock *)
      destruct (schedule_eff s i o1 w p wr) as (o' & d & fo & items & E & B).
      exists o', d, fo, items. split; [exact E|exact (ends_user Hu B)].
    + (* SFail *) apply Hdone.
Qed.

(* an interest fires or is cancelled: the handler runs on the object without the bit (DelRead / DelWrite came first) *)
Inductive fires (w : bool) (o : obj) : obj -> Z -> bool -> list item -> Prop :=
| fires_idle : slot w o = None -> fires w o (dereg w o) 0 false []
| fires_op p wr o' d fo items : slot w o = Some p -> ends w (op_cb p) wr (dereg w o) o' d fo items -> fires w o o' d fo items.
Arguments fires_idle {w o} _.
Arguments fires_op {w o p} wr {o' d fo items} _ _.

Lemma fires_items {w o o' d fo items} : fires w o o' d fo items -> opt_invoke items.
Proof. intros [_|p wr o1 d1 fo1 items1 _ B]; [left; reflexivity|exact (ends_items B)]. Qed.

Lemma on_event_eff s i o w err :
  exists o' d fo items, on_event s i o w err = (put s i o' d fo, items) /\ fires w o o' d fo items.
Proof.
  unfold on_event. cbv zeta. fold (dereg w o). fold (slot w o).
  destruct (slot w o) as [p|] eqn:Hs.
  - assert (Hdone : forall o1 e n wr, same_user (dereg w o) o1 -> exists o' d fo items,
              (set_obj s i o1, [IInvoke (op_cb p) e n wr]) = (put s i o' d fo, items) /\ fires w o o' d fo items).
    { intros o1 e n wr Hu. exists o1, 0, false, [IInvoke (op_cb p) e n wr].
      split; [rewrite set_obj_put; reflexivity|exact (fires_op wr Hs (completed_same_user _ _ e n Hu))]. }
    assert (Hnow : exists o' d fo items,
              io_now 64 (set_obj s i (dereg w o)) i w p (is_pkt o && op_wrapped p) = (put s i o' d fo, items) /\
              fires w o o' d fo items).
    { destruct (io_now_eff 64 (set_obj s i (dereg w o)) i w p (is_pkt o && op_wrapped p) _ (lookup_set_obj s i _))
        as (o' & d & fo & items & E & B).
      rewrite E, set_obj_put, put_put. exists o', (0 + d), (false || fo), items. split; [reflexivity|exact (fires_op _ Hs B)]. }
    destruct (negb (err =? xNil)).
    + apply Hdone, same_user_refl.
    + (* err = nil: a listener (the one kind for which [Hnow] is not the goal) accepts once and hands the result to
         the callback *)
      destruct (o_kind o); try exact Hnow.
      pose proof (sys_read_user (dereg w o) 0) as Hu. destruct (sys_read (dereg w o) 0) as [o2 r]. apply Hdone, Hu.
  - exists (dereg w o), 0, false, []. split; [rewrite set_obj_put; reflexivity|exact (fires_idle Hs)].
Qed.

Lemma del_on_event_eff s i o w err :
  ev w o = true ->
  exists o' d fo items, (let '(s1, o1) := del_interest s i o w in on_event s1 i o1 w err) = (put s i o' (d - 1) fo, items) /\
    fires w (clr w o) o' d fo items.
Proof.
  intros Hb. rewrite del_interest_eq, Hb.
  destruct (on_event_eff (set_pending s (l_pending s - 1)) i (clr w o) w err) as (o' & d & fo & items & E & B).
  exists o', d, fo, items. split; [|exact B]. rewrite E. f_equal. unfold put at 1. fields. apply put_eq; [lia|reflexivity].
Qed.

Inductive writes (s : loop) (i : Z) : loop * list item -> Prop :=
| writes_none : writes s i (s, [])
| writes_fire o o' d fo items :
    lookup i (l_objs s) = Some o -> ev true o = true -> fires true (clr true o) o' d fo items ->
    writes s i (put s i o' (d - 1) fo, items).
Arguments writes_fire {s i o o' d fo items} _ _ _.

Lemma write_event_writes s i err : writes s i (write_event s i err).
Proof.
  unfold write_event. destruct (lookup i (l_objs s)) as [o|] eqn:Hl; [|constructor].
  destruct (o_evW o) eqn:E; [|constructor].
  destruct (del_on_event_eff s i o true (if (err =? xCancelled) && negb (ctl_ok o) then xEPERM else err) E)
    as (o' & d & fo & items & E' & B).
  rewrite E'. exact (writes_fire Hl E B).
Qed.

Lemma write_event_items s i err : opt_invoke (snd (write_event s i err)).
Proof. destruct (write_event_writes s i err) as [|o o' d fo items _ _ B]; [left; reflexivity|exact (fires_items B)]. Qed.

Definition tbit (t : tmr) : Z := if t_evR t then 1 else 0.
Definition tput (s : loop) (i : Z) (t : tmr) (d : Z) : loop :=
  mkloop (l_pending s + d) (l_disp s) (l_posts s) (l_objs s) (update i t (l_tmrs s)) (l_progs s) (l_now s) (l_depth s)
    (l_log s) (l_fuel_out s) (l_budget s) (l_overlap s).

Lemma tput_eq s i t d p :
  p = l_pending s + d ->
  mkloop p (l_disp s) (l_posts s) (l_objs s) (update i t (l_tmrs s)) (l_progs s) (l_now s) (l_depth s) (l_log s)
    (l_fuel_out s) (l_budget s) (l_overlap s) = tput s i t d.
Proof. intros ->. reflexivity. Qed.

Lemma set_tmr_tput s i t : set_tmr s i t = tput s i t 0.
Proof. apply tput_eq. lia. Qed.

Lemma tput_same {s i t} : lookup i (l_tmrs s) = Some t -> tput s i t 0 = s.
Proof.
  intros H. destruct s. unfold tput. fields. rewrite (update_lookup H), Z.add_0_r. reflexivity.
Qed.

Lemma sched_once_eff s i t ms cb rep :
  lookup i (l_tmrs s) = Some t ->
  exists t' d items, sched_once s i t ms cb rep = (tput s i t' d, items) /\ tbit t' = tbit t + d /\
    (t_cb t' = t_cb t \/ t_cb t' = cb) /\ (items = [] \/ items = [IInvoke cb xNil 0 false]).
Proof.
  intros Hl. unfold sched_once. destruct (t_state t =? 0).
  2:{ (* not ready *) exists t, 0, []. rewrite (tput_same Hl). auto with zarith. }
  destruct (ms <=? 0).
  { (* no delay: the callback runs now *)
    do 3 eexists. split; [rewrite set_tmr_tput; reflexivity|cbn; auto with zarith]. }
  unfold timer_unset, tbit. cbn [t_evR]. destruct (t_evR t); cbv iota beta.
  - (* armed before *)
    exists (mktmr 1 false true cb rep (Some (l_now s + ms)) true), 0, [].
    split; [f_equal; fields; apply tput_eq; lia|cbn; auto with zarith].
  - (* not armed before *)
    exists (mktmr 1 false true cb rep (Some (l_now s + ms)) true), 1, [].
    split; [f_equal; fields; apply tput_eq; lia|cbn; auto with zarith].
Qed.

(* A timer's batch entry fires the closure when the kernel reported the timerfd readable, the interest is still there
   and the CURRENT schedule has expired (a stale entry for a timer re-armed by an earlier handler does nothing). *)
Lemma poll_entry_timer {s i t} mask : lookup i (l_tmrs s) = Some t ->
  poll_entry s (1, i, mask) =
  if (has mask mIN || has mask mHUP || has mask mERR) && t_evR t &&
     match t_due t with Some due => due <=? l_now s | None => false end
  then (tput s i (mktmr (t_state t) (t_cancelled t) false (t_cb t) (t_rep t) None (t_member t)) (-1), [ITimerFired i])
  else (s, []).
Proof.
  intros Hl. unfold poll_entry. cbn [Z.eqb]. rewrite Hl. destruct (_ && t_evR t); [|reflexivity].
  destruct (match t_due t with Some due => due <=? l_now s | None => false end); [|reflexivity].
  cbn [andb]. fields. rewrite (tput_eq s i _ (-1)) by lia. reflexivity.
Qed.

Definition missing (s : loop) (a : action) : Prop :=
  match a with
  | AStart _ _ i _ _ | ACancel i | AClose i => lookup i (l_objs s) = None
  | ASched i _ _ _ | ATCancel i | ATClose i => lookup i (l_tmrs s) = None
  | APost _ => False
  end.

Lemma do_action_none s a : missing s a -> do_action s a = (s, []).
Proof. destruct a; cbn [do_action missing]; try contradiction; intros ->; reflexivity. Qed.

Lemma do_action_start {s} (w all : bool) {i} len cb {o} :
  lookup i (l_objs s) = Some o ->
  do_action s (AStart w all i len cb) =
  let p := mkop cb all len 0 false in
  let s0 := note_overlap (add_log s (LStart cb i w all len)) (ev w o) in
  if l_disp s <? sonic_MaxCallbackDispatch then io_now 64 (set_obj s0 i (stash w o (Some p))) i w p true
  else schedule s0 i (stash w o (Some p)) w p false.
Proof. intros Hl. cbn [do_action]. rewrite Hl. reflexivity. Qed.

Lemma do_action_close {s i o} :
  lookup i (l_objs s) = Some o ->
  do_action s (AClose i) =
  if o_closed o then (add_log s (LClose i xEOF), [])
  else (add_log (put s i (shut o) (- nbits o) false)
          (LClose i (if (o_evR o || o_evW o) && negb (ctl_ok o) then xEPERM else xNil)), []).
Proof.
  intros Hl. cbn [do_action]. rewrite Hl. destruct (o_closed o); [reflexivity|].
  rewrite del_interest_eq. cbv iota beta. rewrite del_interest_eq. cbv iota beta.
  unfold ev, clr, shut, nbits. cbn [o_kind o_evR o_evW o_rd o_wr e_rq e_reof e_rst e_wdead e_wroom with_rd with_wr].
  destruct (o_evR o), (o_evW o); do 2 f_equal; fields; apply put_eq; first [lia|symmetry; apply orb_false_r].
Qed.

Lemma do_action_tcancel {s i t} :
  lookup i (l_tmrs s) = Some t ->
  exists t', do_action s (ATCancel i) = (add_log (tput s i t' (- tbit t)) (LTCancel i xNil), []) /\
    t_evR t' = false /\ t_cb t' = t_cb t /\ t_cancelled t' = true /\ t_state t' = (if t_state t =? 2 then 2 else 0).
Proof.
  intros Hl. cbn [do_action]. rewrite Hl. unfold timer_unset, tbit.
  destruct (t_evR t) eqn:E; cbv iota beta; eexists; (split; [do 2 f_equal; fields; apply tput_eq; lia|cbn; auto]).
Qed.

Lemma do_action_tclose {s i t} :
  lookup i (l_tmrs s) = Some t ->
  exists t' d, do_action s (ATClose i) = (add_log (tput s i t' d) (LTClose i xNil), []) /\
    tbit t' = tbit t + d /\ t_cb t' = t_cb t /\ (t_state t <> 2 -> t_evR t' = false /\ t_state t' = 2 /\ t_member t' = false).
Proof.
  intros Hl. cbn [do_action]. rewrite Hl. destruct (t_state t =? 2) eqn:Es.
  { apply Z.eqb_eq in Es. exists t, 0. rewrite (tput_same Hl).
    split; [reflexivity|]. split; [lia|]. split; [reflexivity|intros H; contradiction]. }
  unfold timer_unset, tbit. destruct (t_evR t); cbv iota beta.
  - eexists. exists (-1). split; [do 2 f_equal; fields; apply tput_eq; lia|cbn; auto with zarith].
  - eexists. exists 0. split; [do 2 f_equal; fields; apply tput_eq; lia|cbn; auto with zarith].
Qed.

Definition invoke (s : loop) (cb err n : Z) (wrapped : bool) : loop * list item :=
  let d := l_depth s + 1 in
  let s1 := add_log (set_depth s d) (LCb cb err n d) in
  let s2 := if wrapped then set_disp s1 (l_disp s1 + 1) else s1 in
  (mkloop (l_pending s2) (l_disp s2) (l_posts s2) (l_objs s2) (l_tmrs s2) (l_progs s2) (l_now s2) (l_depth s2)
     (l_log s2) (l_fuel_out s2) (l_budget s2 - 1) (l_overlap s2),
   (if 0 <? l_budget s2 then map IAct (prog_of s2 cb) else []) ++ [IEnd wrapped]).

Definition step (s : loop) (it : item) : loop * list item :=
  match it with
  | IAct a => do_action s a
  | IInvoke cb err n wrapped => invoke s cb err n wrapped
  | IEnd wrapped => (let s1 := set_depth s (l_depth s - 1) in if wrapped then set_disp s1 (l_disp s1 - 1) else s1, [])
  | ITimerFired i =>
      match lookup i (l_tmrs s) with
      | None => (s, [])
      | Some t => (set_tmr s i (mktmr 0 (t_cancelled t) (t_evR t) (t_cb t) (t_rep t) (t_due t) false),
                   IInvoke (t_cb t) xNil 0 false :: (if 0 <? t_rep t then [ITimerAfter i] else []))
      end
  | ITimerAfter i =>
      match lookup i (l_tmrs s) with
      | None => (s, [])
      | Some t =>
          if t_cancelled t then (set_tmr s i (mktmr (t_state t) false (t_evR t) (t_cb t) (t_rep t) (t_due t) (t_member t)), [])
          else sched_once s i t (t_rep t) (t_cb t) (t_rep t)
      end
  | ICancelWrites i => (fst (write_event s i xCancelled), snd (write_event s i xCancelled) ++ [ICancelEnd i])
  | ICancelEnd i => (add_log s (LCancel i true), [])
  | ILog e => (add_log s e, [])
  | IPollWrite i => write_event s i xNil
  | IPollEntry e => poll_entry s e
  end.

Lemma exec_S f s it rest : exec (S f) s (it :: rest) = exec f (fst (step s it)) (snd (step s it) ++ rest).
Proof.
  destruct it; cbn [exec step invoke fst snd].
  - (* IAct *) destruct (do_action s a); reflexivity.
  - (* IInvoke *) rewrite <- app_assoc. reflexivity.
  - (* IEnd *) reflexivity.
  - (* ITimerFired *) destruct (lookup t (l_tmrs s)); reflexivity.
  - (* ITimerAfter *)
    destruct (lookup t (l_tmrs s)) as [tm|]; [|reflexivity]. destruct (t_cancelled tm); [reflexivity|].
    destruct (sched_once s t tm (t_rep tm) (t_cb tm) (t_rep tm)); reflexivity.
  - (* ICancelWrites *) destruct (write_event s i xCancelled). cbn [fst snd]. rewrite <- app_assoc. reflexivity.
  - (* ICancelEnd *) reflexivity.
  - (* ILog *) reflexivity.
  - (* IPollWrite *) destruct (write_event s i xNil); reflexivity.
  - (* IPollEntry *) destruct (poll_entry s e); reflexivity.
Qed.

Lemma invoke_state s cb err n (w : bool) :
  fst (invoke s cb err n w) =
  mkloop (l_pending s) (l_disp s + (if w then 1 else 0)) (l_posts s) (l_objs s) (l_tmrs s) (l_progs s) (l_now s)
    (l_depth s + 1) (LCb cb err n (l_depth s + 1) :: l_log s) (l_fuel_out s) (l_budget s - 1) (l_overlap s).
Proof. destruct w; cbn; [reflexivity|rewrite Z.add_0_r; reflexivity]. Qed.

Lemma invoke_items s cb err n w :
  exists acts, snd (invoke s cb err n w) = acts ++ [IEnd w] /\ (acts = [] \/ acts = map IAct (prog_of s cb)).
Proof.
  unfold invoke. cbn [snd]. eexists. split; [reflexivity|].
  destruct (0 <? _); [right; destruct w; reflexivity|left; reflexivity].
Qed.

(* Beside invocations a step pushes only the second halves of what it began, and logs, outside an invocation and a
   start, only entries that are neither. *)
Definition note (e : lev) : Prop := match e with LCb _ _ _ _ | LStart _ _ _ _ _ => False | _ => True end.
Definition cont (it : item) : Prop :=
  match it with
  | ICancelWrites _ | ICancelEnd _ | IPollWrite _ | ITimerFired _ | ITimerAfter _ => True
  | ILog e => note e
  | _ => False
  end.

(* What one step of the machine can do, with what an invariant may need to know about the outcome.  A constructor whose
   item is a variable stands for several items: [mv_stay] for whatever is not found or not ready, [mv_fire] for the read
   side of a batch entry, its write side and both halves of Cancel, [mv_tmr] for every step that stores a timer (cb is
   the callback it may invoke: the timer's, or the one ASched was given).  What an action notes in the log is left to
   [mv_noted], whichever end of the function writes it: [add_log] commutes with [put] and [tput] by computation. *)
Inductive moves (s : loop) : item -> loop * list item -> Prop :=
| mv_stay it tail : Forall cont tail -> moves s it (s, tail)
| mv_noted it e s' items : note e -> moves s it (s', items) -> moves s it (add_log s' e, items)
| mv_log e : moves s (ILog e) (add_log s e, [])
| mv_start w all i len cb o o' d fo items wr :
    lookup i (l_objs s) = Some o -> ends w cb wr (stash w o (Some (mkop cb all len 0 false))) o' d fo items ->
    moves s (IAct (AStart w all i len cb)) (put (note_overlap (add_log s (LStart cb i w all len)) (ev w o)) i o' d fo, items)
| mv_fire it w i o o' d fo items tail :
    lookup i (l_objs s) = Some o -> ev w o = true -> fires w (clr w o) o' d fo items -> Forall cont tail ->
    moves s it (put s i o' (d - 1) fo, items ++ tail)
| mv_shut i o : lookup i (l_objs s) = Some o -> moves s (IAct (AClose i)) (put s i (shut o) (- nbits o) false, [])
| mv_tmr it i t t' d cb items tail :
    lookup i (l_tmrs s) = Some t -> tbit t' = tbit t + d -> t_cb t' = t_cb t \/ t_cb t' = cb ->
    cb = t_cb t \/ (exists rep ms, it = IAct (ASched i rep ms cb)) -> items = [] \/ items = [IInvoke cb xNil 0 false] ->
    Forall cont tail -> moves s it (tput s i t' d, items ++ tail)
| mv_post cb : moves s (IAct (APost cb)) (set_pending (set_posts s (l_posts s ++ [cb])) (l_pending s + 1), [])
| mv_posts e :
    moves s (IPollEntry e)
      (set_pending (set_posts s []) (l_pending s - zlen (l_posts s)), map (fun cb => IInvoke cb xNil 0 false) (l_posts s))
| mv_invoke cb err n w : moves s (IInvoke cb err n w) (invoke s cb err n w)
| mv_end w :
    moves s (IEnd w) (let s1 := set_depth s (l_depth s - 1) in if w then set_disp s1 (l_disp s1 - 1) else s1, []).
Arguments mv_stay {s} it {tail} _.
Arguments mv_noted {s it} e {s' items} _ _.
Arguments mv_start {s w all i len cb o o' d fo items wr} _ _.
Arguments mv_fire {s} it {w i o o' d fo items tail} _ _ _ _.
Arguments mv_shut {s i o} _.
Arguments mv_tmr {s} it {i t t' d} cb {items tail} _ _ _ _ _ _.

Lemma write_event_moves s i err it tail :
  Forall cont tail -> moves s it (fst (write_event s i err), snd (write_event s i err) ++ tail).
Proof.
  intros Ht. destruct (write_event_writes s i err) as [|o o' d fo items Hl E B];
    [exact (mv_stay it Ht)|exact (mv_fire it Hl E B Ht)].
Qed.

Lemma poll_entry_moves s e : moves s (IPollEntry e) (poll_entry s e).
Proof.
  destruct e as [[kind i] mask]. unfold poll_entry.
  assert (H0 : moves s (IPollEntry (kind, i, mask)) (s, [])) by (apply mv_stay; constructor).
  destruct (kind =? 2); [apply mv_posts|].
  destruct (kind =? 1).
  { destruct (lookup i (l_tmrs s)) as [t|] eqn:Hl; [|exact H0].
    destruct (t_evR t) eqn:E; [|rewrite andb_false_r; exact H0].
    destruct (has mask mIN || has mask mHUP || has mask mERR); [|exact H0].
    destruct (match t_due t with Some due => due <=? l_now s | None => false end); [|exact H0].
    cbn [andb]. fields. rewrite (tput_eq s i _ (-1)) by lia.
    apply (mv_tmr _ (t_cb t) (items := []) Hl); auto; [unfold tbit; rewrite E; reflexivity|repeat constructor]. }
  destruct (lookup i (l_objs s)) as [o|] eqn:Hl; [|exact H0].
  assert (Ht : Forall cont (if has mask mOUT || (has mask mHUP || has mask mERR) then [IPollWrite i] else [])).
  { destruct (has mask mOUT || _); repeat constructor. }
  destruct (o_evR o) eqn:E; [|rewrite andb_false_r; exact (mv_stay _ Ht)].
  destruct (has mask mIN || (has mask mHUP || has mask mERR)); [|exact (mv_stay _ Ht)].
  destruct (del_on_event_eff s i o false xNil E) as (o' & d & fo & items & E' & B).
  cbn [andb]. rewrite E'. exact (mv_fire _ (w := false) Hl E B Ht).
Qed.

Lemma do_action_moves s a : moves s (IAct a) (do_action s a).
Proof.
  assert (Hm : missing s a -> moves s (IAct a) (do_action s a)).
  { intros Hm. rewrite (do_action_none s a Hm). apply mv_stay. constructor. }
  destruct a; cbn [missing] in Hm.
  - (* AStart *)
    destruct (lookup o (l_objs s)) as [ob|] eqn:Hl; [|exact (Hm eq_refl)].
    rewrite (do_action_start _ _ _ _ Hl). cbv zeta.
    set (p := mkop cb all len 0 false). set (s0 := note_overlap (add_log s (LStart cb o write all len)) (ev write ob)).
    destruct (l_disp s <? sonic_MaxCallbackDispatch).
    + destruct (io_now_eff 64 (set_obj s0 o (stash write ob (Some p))) o write p true _ (lookup_set_obj _ _ _))
        as (o' & d & fo & items & E & B).
      rewrite E, set_obj_put, put_put. exact (mv_start Hl B).
    + destruct (schedule_eff s0 o (stash write ob (Some p)) write p false) as (o' & d & fo & items & E & B).
      rewrite E. exact (mv_start Hl B).
  - (* ACancel *)
    destruct (lookup o (l_objs s)) as [ob|] eqn:Hl; [|exact (Hm eq_refl)].
    cbn [do_action]. rewrite Hl. cbv zeta.
    destruct (o_evR ob) eqn:E; [|apply (mv_noted (LCancel o false) I), mv_stay; repeat constructor].
    destruct (del_on_event_eff (add_log s (LCancel o false)) o ob false (if ctl_ok ob then xCancelled else xEPERM) E)
      as (o' & d & fo & items & E' & B).
    rewrite E'. apply (mv_noted (LCancel o false) (s' := put s o o' (d - 1) fo) I), (mv_fire _ (w := false) Hl E B).
    repeat constructor.
  - (* AClose *)
    destruct (lookup o (l_objs s)) as [ob|] eqn:Hl; [|exact (Hm eq_refl)].
    rewrite (do_action_close Hl).
    destruct (o_closed ob); apply mv_noted; try exact I; [apply mv_stay; constructor|exact (mv_shut Hl)].
  - (* ASched *)
    destruct (lookup t (l_tmrs s)) as [tm|] eqn:Hl; [|exact (Hm eq_refl)].
    assert (Hno : moves s (IAct (ASched t rep ms cb)) (add_log s (LSched t rep ms cb xCancelled), [])).
    { apply mv_noted; [exact I|apply mv_stay; constructor]. }
    cbn [do_action]. rewrite Hl. destruct (rep && (ms <=? 0)); [exact Hno|]. destruct (t_state tm =? 0); [|exact Hno].
    destruct (sched_once_eff s t tm ms cb (if rep then ms else 0) Hl) as (t' & d & items & E & A & B & C).
    rewrite E. apply (mv_tmr _ cb Hl A B); [right; exists rep, ms; reflexivity|exact C|repeat constructor].
  - (* ATCancel *)
    destruct (lookup t (l_tmrs s)) as [tm|] eqn:Hl; [|exact (Hm eq_refl)].
    destruct (do_action_tcancel Hl) as (t' & E & A & B & _). rewrite E. apply mv_noted; [exact I|].
    apply (mv_tmr _ (t_cb tm) (items := []) (tail := []) Hl); auto. unfold tbit at 1. rewrite A. lia.
  - (* ATClose *)
    destruct (lookup t (l_tmrs s)) as [tm|] eqn:Hl; [|exact (Hm eq_refl)].
    destruct (do_action_tclose Hl) as (t' & d & E & A & B & _). rewrite E. apply mv_noted; [exact I|].
    apply (mv_tmr _ (t_cb tm) (items := []) (tail := []) Hl A); auto.
  - apply mv_noted; [exact I|apply mv_post].
Qed.

Lemma step_moves s it : moves s it (step s it).
Proof.
  destruct it; cbn [step].
  - (* IAct *) apply do_action_moves.
  - (* IInvoke *) apply mv_invoke.
  - (* IEnd *) apply mv_end.
  - (* ITimerFired *)
    destruct (lookup t (l_tmrs s)) as [tm|] eqn:Hl; [|apply mv_stay; constructor]. rewrite set_tmr_tput.
    apply (mv_tmr _ (t_cb tm) (items := [_]) Hl); auto with zarith; destruct (0 <? t_rep tm); repeat constructor.
  - (* ITimerAfter *)
    destruct (lookup t (l_tmrs s)) as [tm|] eqn:Hl; [|apply mv_stay; constructor]. destruct (t_cancelled tm).
    + rewrite set_tmr_tput. apply (mv_tmr _ (t_cb tm) (items := []) (tail := []) Hl); auto with zarith.
    + destruct (sched_once_eff s t tm (t_rep tm) (t_cb tm) (t_rep tm) Hl) as (t' & d & items & E & A & B & C).
      rewrite E, <- (app_nil_r items). apply (mv_tmr _ (t_cb tm) Hl A B); auto; constructor.
  - (* ICancelWrites *) apply write_event_moves. repeat constructor.
  - (* ICancelEnd *) apply mv_noted; [exact I|apply mv_stay; constructor].
  - (* ILog *) apply mv_log.
  - (* IPollWrite *)
    rewrite (surjective_pairing (write_event s i xNil)), <- (app_nil_r (snd _)). apply write_event_moves. constructor.
  - (* IPollEntry *) apply poll_entry_moves.
Qed.

Section ExecInd.
Variable Inv : loop -> list item -> Prop.
Variable Post : loop -> Prop.
Hypothesis Inv_step : forall s it rest, Inv s (it :: rest) -> Inv (fst (step s it)) (snd (step s it) ++ rest).
Hypothesis Inv_done : forall s, Inv s [] -> Post s.
Hypothesis Inv_fuel : forall s it rest, Inv s (it :: rest) -> Post (out_of_fuel s).

Theorem exec_ind fuel : forall s stk, Inv s stk -> Post (exec fuel s stk).
Proof.
  induction fuel as [|f IH]; intros s stk H.
  - destruct stk as [|it rest]; [apply Inv_done; exact H|exact (Inv_fuel _ _ _ H)].
  - destruct stk as [|it rest]; [apply Inv_done; exact H|]. rewrite exec_S. apply IH, Inv_step, H.
Qed.
End ExecInd.

Corollary exec_preserves (P : loop -> Prop) :
  (forall s it, P s -> P (fst (step s it))) -> (forall s, P s -> P (out_of_fuel s)) ->
  forall fuel s stk, P s -> P (exec fuel s stk).
Proof. intros Hs Hf fuel s stk. apply (exec_ind (fun s _ => P s) P); auto. Qed.

Definition refill (s : loop) : loop :=
  mkloop (l_pending s) (l_disp s) (l_posts s) (l_objs s) (l_tmrs s) (l_progs s) (l_now s) (l_depth s)
    (l_log s) (l_fuel_out s) 300 (l_overlap s).

Definition peer_obj (p : peerop) (o : obj) : obj :=
  match p with
  | PData n => mkobj (o_kind o) (o_closed o) (o_evR o) (o_evW o) (o_rd o) (o_wr o) (o_reg o) (e_rq o + n) (e_reof o) (e_rst o) (e_wdead o) (e_wroom o)
  | PClose => match o_kind o with
              | KPipeW => mkobj (o_kind o) (o_closed o) (o_evR o) (o_evW o) (o_rd o) (o_wr o) (o_reg o) (e_rq o) (e_reof o) (e_rst o) true (e_wroom o)
              | _ => mkobj (o_kind o) (o_closed o) (o_evR o) (o_evW o) (o_rd o) (o_wr o) (o_reg o) (e_rq o) true (e_rst o) (e_wdead o) (e_wroom o)
              end
  | PRst => mkobj (o_kind o) (o_closed o) (o_evR o) (o_evW o) (o_rd o) (o_wr o) (o_reg o) (e_rq o) (e_reof o) true (e_wdead o) (e_wroom o)
  | PDrain _ => mkobj (o_kind o) (o_closed o) (o_evR o) (o_evW o) (o_rd o) (o_wr o) (o_reg o) (e_rq o) (e_reof o) (e_rst o) (e_wdead o) (-1)
  | PFill => mkobj (o_kind o) (o_closed o) (o_evR o) (o_evW o) (o_rd o) (o_wr o) (o_reg o) (e_rq o) (e_reof o) (e_rst o) (e_wdead o) 0
  | PKill => mkobj KDead (o_closed o) (o_evR o) (o_evW o) (o_rd o) (o_wr o) (o_reg o) 0 (e_reof o) (e_rst o) (e_wdead o) (e_wroom o)
  end.

(* used as [rewrite lstep_eq. cbv zeta.], with [change (f s) with (f (refill s))] for the fields refill leaves alone *)
Lemma lstep_eq s o :
  lstep s o =
  let s1 := refill s in
  match o with
  | LObj i k => set_obj s1 i (new_obj k)
  | LTimer i => set_tmr s1 i new_tmr
  | LProg cb acts => mkloop (l_pending s1) (l_disp s1) (l_posts s1) (l_objs s1) (l_tmrs s1) (update cb acts (l_progs s1)) (l_now s1)
                       (l_depth s1) (l_log s1) (l_fuel_out s1) (l_budget s1) (l_overlap s1)
  | LDepth n => set_disp s1 n
  | LPeer i p => match lookup i (l_objs s1) with None => s1 | Some o => set_obj s1 i (peer_obj p o) end
  | LSleep ms => mkloop (l_pending s1) (l_disp s1) (l_posts s1) (l_objs s1) (l_tmrs s1) (l_progs s1) (l_now s1 + ms)
                   (l_depth s1) (l_log s1) (l_fuel_out s1) (l_budget s1) (l_overlap s1)
  | LPoll batch => exec exec_fuel s1 (map IPollEntry batch)
  | LAct a => exec exec_fuel s1 [IAct a]
  end.
Proof. destruct o; reflexivity. Qed.

(* same_user without the kind, which PKill changes *)
Record same_flags (o o' : obj) : Prop := {
  sf_closed : o_closed o' = o_closed o;  sf_evR : o_evR o' = o_evR o;  sf_evW : o_evW o' = o_evW o;
  sf_rd : o_rd o' = o_rd o;  sf_wr : o_wr o' = o_wr o;  sf_reg : o_reg o' = o_reg o }.
Arguments sf_closed {o o'} _.  Arguments sf_evR {o o'} _.  Arguments sf_evW {o o'} _.
Arguments sf_rd {o o'} _.  Arguments sf_wr {o o'} _.  Arguments sf_reg {o o'} _.

Lemma peer_obj_flags p o : same_flags o (peer_obj p o).
Proof. destruct p; cbn [peer_obj]; try (split; reflexivity). destruct (o_kind o); split; reflexivity. Qed.

(* A property [q closed evR evW reg] of an object's four flags that survives what the library does to them (the seven
   hypotheses: a read armed, a write armed - both only on an open object, hence [q false ..] -, a read interest removed,
   a write interest removed, the registry left, Close, a new object) holds of every object after every script line
   ([lstep_objs]; for every script with LoopProofs.lrun_inv).  Give q explicitly, [apply (lstep_objs (fun c r w g => ..))]:
   an invariant [Forall (fun p => ok (snd p)) (l_objs s)] is [objs_ok q s] by conversion only. *)
Section Flags.
Variable q : bool -> bool -> bool -> bool -> Prop.
Hypothesis q_armR : forall r w g, q false r w g -> q false true w true.
Hypothesis q_armW : forall r w g, q false r w g -> q false r true true.
Hypothesis q_delR : forall c r w g, q c r w g -> q c false w g.
Hypothesis q_delW : forall c r w g, q c r w g -> q c r false g.
Hypothesis q_dereg : forall c g, q c false false g -> q c false false false.
Hypothesis q_close : q true false false false.
Hypothesis q_new : q false false false false.

Definition Q (o : obj) : Prop := q (o_closed o) (o_evR o) (o_evW o) (o_reg o).
Definition objs_ok (s : loop) : Prop := Forall (fun p => Q (snd p)) (l_objs s).

Lemma objs_ok_put s i o d fo : objs_ok s -> Q o -> objs_ok (put s i o d fo).
Proof. intros H Ho. apply Forall_update; assumption. Qed.

Lemma Q_same_user {o o'} : same_user o o' -> Q o -> Q o'.
Proof. unfold Q. intros U. rewrite (su_closed U), (su_evR U), (su_evW U), (su_reg U). auto. Qed.

Lemma Q_clr o w : Q o -> Q (clr w o).
Proof. unfold Q. destruct w; cbn; [apply q_delW|apply q_delR]. Qed.

Lemma Q_dereg o w : Q o -> Q (dereg w o).
Proof.
  unfold Q. intros H. destruct w; cbn; destruct (o_evR o), (o_evW o); cbn; first [exact H|exact (q_dereg _ _ H)].
Qed.

Lemma ends_Q {w cb wr o o' d fo items} : ends w cb wr o o' d fo items -> Q o -> Q o'.
Proof.
  intros H Ho. pose proof (so_closed (ends_other H)) as Vc. pose proof (so_ev (ends_other H)) as Vev. unfold Q in *.
  destruct H as [o1 e n _ Hev Hreg|o1 p' _ Hc Hev Hreg _ _|o1 U].
  - rewrite Vc, Hreg. destruct w; cbn [ev negb] in *; rewrite Hev, Vev; exact Ho.
  - rewrite Vc, Hreg, Hc. rewrite Hc in Ho.
    destruct w; cbn [ev negb] in *; rewrite Hev, Vev; [exact (q_armW _ _ _ Ho)|exact (q_armR _ _ _ Ho)].
  - exact (Q_same_user U Ho).
Qed.

Lemma fires_Q {w o o' d fo items} : fires w o o' d fo items -> Q o -> Q o'.
Proof.
  intros H Ho. apply (Q_dereg o w) in Ho. destruct H as [_|p wr o1 d1 fo1 items1 _ B]; [exact Ho|exact (ends_Q B Ho)].
Qed.

Lemma fire_objs {s i w o o' d fo items} :
  objs_ok s -> lookup i (l_objs s) = Some o -> fires w (clr w o) o' d fo items -> objs_ok (put s i o' (d - 1) fo).
Proof. intros Hi Hl B. apply objs_ok_put; [exact Hi|]. exact (fires_Q B (Q_clr _ _ (Forall_lookup Q Hi Hl))). Qed.

Lemma step_objs s it : objs_ok s -> objs_ok (fst (step s it)).
Proof.
  intros Hi.
  induction (step_moves s it) as [it tail _|it e s' items _ _ IH|e|w all i len cb o o' d fo items wr Hl B
                                  |it w i o o' d fo items tail Hl _ B _|i o Hl|it i t t' d cb items tail _ _ _ _ _ _
                                  |cb|e|cb err n w|w]; cbn [fst].
  - (* nothing found, nothing ready *) exact Hi.
  - (* a note in the log *) exact IH.
  - (* ILog *) exact Hi.
  - (* AStart *) apply objs_ok_put; [exact Hi|]. apply (ends_Q B). destruct w; exact (Forall_lookup Q Hi Hl).
  - (* an interest fires *) exact (fire_objs Hi Hl B).
  - (* AClose *) exact (objs_ok_put s i (shut o) _ _ Hi q_close).
  - (* a timer is stored *) exact Hi.
  - (* APost *) exact Hi.
  - (* the posted handlers *) exact Hi.
  - (* IInvoke *) destruct w; exact Hi.
  - (* IEnd *) destruct w; exact Hi.
Qed.

Theorem exec_objs fuel s stk : objs_ok s -> objs_ok (exec fuel s stk).
Proof. apply (exec_preserves objs_ok); [intros; apply step_objs; assumption|auto]. Qed.

Theorem lstep_objs s o : objs_ok s -> objs_ok (lstep s o).
Proof.
  intros Hi. rewrite lstep_eq. cbv zeta. assert (H1 : objs_ok (refill s)) by exact Hi.
  destruct o.
  - (* LObj *) apply Forall_update; [exact H1|exact q_new].
  - (* LTimer *) exact H1.
  - (* LProg *) exact H1.
  - (* LDepth *) exact H1.
  - (* LPeer *)
    destruct (lookup i (l_objs (refill s))) as [ob|] eqn:Hl; [|exact H1].
    apply Forall_update; [exact H1|]. pose proof (Forall_lookup Q H1 Hl) as Ho.
    pose proof (peer_obj_flags p ob) as F. unfold Q. rewrite (sf_closed F), (sf_evR F), (sf_evW F), (sf_reg F). exact Ho.
  - (* LSleep *) exact H1.
  - (* LPoll *) apply exec_objs; exact H1.
  - (* LAct *) apply exec_objs; exact H1.
Qed.
End Flags.
