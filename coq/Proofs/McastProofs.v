(* C12 (Model/Mcast.v): the cached settings against the socket options ([sstep_sync]); what arrived is what completed
   reads consumed followed by the kernel queue ([dinv]); the membership store through equations for [mfind]. *)
From Sonic Require Import Base.Prelude Model.Mcast.
Local Open Scope Z_scope.

Definition ttl_all_ok (st : kopts * pcache) : Prop := pc_ttl (snd st) = k_ttl (fst st) /\ pc_all (snd st) = k_all (fst st).
Definition loop_ok (st : kopts * pcache) : Prop := pc_loop (snd st) = k_loop (fst st).

(* a setter writes one value to the socket option and to the cached field, or fails and writes neither *)
Lemma sstep_sync st o : (loop_ok st -> loop_ok (sstep st o)) /\ (ttl_all_ok st -> ttl_all_ok (sstep st o)).
Proof. destruct st as [k c], o as [v [|]|v [|]|v [|]]; unfold loop_ok, ttl_all_ok; cbn; tauto. Qed.

Definition read_ok (e : dev) (d : dgram) (buflen : Z) : Prop :=
  match e with
  | DRead _ err n src data =>
      if Z.min buflen (zlen (d_data d)) =? 0 then err = 1 /\ n = 0
      else err = 0 /\ n = Z.min buflen (zlen (d_data d)) /\ src = d_src d /\ data = ztake n (d_data d)
  | _ => False
  end.

(* each read callback consumed exactly one datagram, so the first nreads arrivals are gone and the rest is the queue *)
Fixpoint nreads (l : list dev) : nat := match l with [] => O | DRead _ _ _ _ _ :: r => S (nreads r) | _ :: r => nreads r end.

Definition dinv (s : dstate) : Prop := arrived s = firstn (nreads (dlog s)) (arrived s) ++ q s /\ (nreads (dlog s) <= length (arrived s))%nat.

(* the form the proofs use *)
Lemma dinv_split s : dinv s <-> exists pre, arrived s = pre ++ q s /\ length pre = nreads (dlog s).
Proof.
  unfold dinv. split.
  - intros [A B]. exists (firstn (nreads (dlog s)) (arrived s)). split; [exact A|apply firstn_length_le, B].
  - intros (pre & A & L). rewrite <- L, A, firstn_app, firstn_all, Nat.sub_diag, firstn_O, app_nil_r, app_length.
    split; [reflexivity|lia].
Qed.

Lemma complete_read_spec s b cb d rest : exists err n src data,
  complete_read s b cb d rest = mkds rest (rbuf s) None (DRead cb err n src data :: dlog s) (arrived s) /\
  read_ok (DRead cb err n src data) d b.
Proof.
  unfold complete_read, read_ok. destruct (Z.min b (zlen (d_data d)) =? 0); do 4 eexists; (split; [reflexivity|]); auto.
Qed.

Lemma dinv_complete_read s b cb d rest : dinv s -> q s = d :: rest -> dinv (complete_read s b cb d rest).
Proof.
  intros Hi Hq. apply dinv_split in Hi. destruct Hi as (pre & A & L). apply dinv_split.
  destruct (complete_read_spec s b cb d rest) as (err & n & src & data & -> & _).
  exists (pre ++ [d]). cbn. split; [rewrite A, Hq, <- app_assoc; reflexivity|rewrite app_length, L; cbn; lia].
Qed.

Theorem dstep_inv s o : dinv s -> dinv (dstep s o).
Proof.
  intros Hi. destruct s as [qs b0 rp lg ar], o as [d|b cb|b| |dst data]; cbn [dstep q rbuf rpend dlog arrived].
  - (* DArrive *) apply dinv_split in Hi. destruct Hi as (pre & A & L). apply dinv_split. exists pre. cbn in *.
    split; [rewrite A, app_assoc; reflexivity|exact L].
  - (* DAsyncRead *) destruct qs as [|d rest]; [exact Hi|]. apply dinv_complete_read; [exact Hi|reflexivity].
  - (* DSetBuf *) exact Hi.
  - (* DPoll *)
    destruct rp as [cb|]; [|exact Hi]. destruct qs as [|d rest]; [exact Hi|]. apply dinv_complete_read; [exact Hi|reflexivity].
  - (* DWrite *) exact Hi.
Qed.

Theorem drun_inv ops : forall s, dinv s -> dinv (drun s ops).
Proof. induction ops as [|o r IH]; intros s H; [exact H|]. cbn. apply IH. apply dstep_inv. exact H. Qed.

Lemma complete_read_log {s b cb d rest e} :
  dlog (complete_read s b cb d rest) = e :: dlog s -> q (complete_read s b cb d rest) = rest /\ read_ok e d b.
Proof.
  destruct (complete_read_spec s b cb d rest) as (err & n & src & data & -> & Hok). cbn.
  intros H. injection H as <-. split; [reflexivity|exact Hok].
Qed.

Lemma mfind_head g m l : m_group m = g -> mfind g (m :: l) = Some m.
Proof. intros H. cbn. rewrite H, Z.eqb_refl. reflexivity. Qed.

Lemma src_op_add_ok l g any s l' :
  src_op l g any true s = (l', 0) ->
  mfind g l' = Some (mkm g any (s :: match mfind g l with Some m => m_srcs m | None => [] end) true).
Proof.
  unfold src_op. destruct (mfind g l) as [m|].
  - destruct (m_alloc m && negb (Bool.eqb (m_any m) any)); [discriminate|]. destruct (zmem s (m_srcs m)); [discriminate|].
    intros H. inversion H. apply mfind_head. reflexivity.
  - destruct any; cbn [negb andb]; [discriminate|]. intros H. inversion H. apply mfind_head. reflexivity.
Qed.

Lemma mfind_mremove h g l : h <> g -> mfind h (mremove g l) = mfind h l.
Proof.
  intros Hn. induction l as [|m r IH]; cbn [mremove mfind]; [reflexivity|].
  destruct (Z.eqb_spec (m_group m) g) as [E|E]; cbn [mfind].
  - destruct (Z.eqb_spec (m_group m) h); [congruence|reflexivity].
  - rewrite IH. reflexivity.
Qed.

Lemma mfind_tail h m l : h <> m_group m -> mfind h (m :: l) = mfind h l.
Proof. intros Hn. cbn. replace (m_group m =? h) with false by lia. reflexivity. Qed.

(* every branch returns l or mremove g l, bare or with an entry for g in front *)
Lemma mfind_src_op h l g any add s : h <> g -> mfind h (fst (src_op l g any add s)) = mfind h l.
Proof.
  intros Hn. unfold src_op. destruct (mfind g l) as [m|].
  - destruct (m_alloc m && negb (Bool.eqb (m_any m) any)); [reflexivity|].
    destruct add.
    + destruct (zmem s (m_srcs m)); cbn [fst]; rewrite mfind_tail, mfind_mremove by exact Hn; reflexivity.
    + (* the membership may go with its last source *)
      destruct (zmem s (m_srcs m)); [destruct (zdel s (m_srcs m)), any|]; cbn [fst];
        rewrite ?mfind_tail, ?mfind_mremove by exact Hn; reflexivity.
  - destruct (negb any && add); cbn [fst]; rewrite ?mfind_tail by exact Hn; reflexivity.
Qed.
