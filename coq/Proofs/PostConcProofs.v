(* C05: invariants of the Post transition system (Model/PostConc.v) over ALL interleavings. *)
From Sonic Require Import Base.Prelude Base.ListLemmas Model.PostConc.
Local Open Scope Z_scope.

(* [cinv] counts the threads (the posters, and the loop while a handler of its batch is inside Post) whose pc lies in a
   range of Post: [hold] - the mutex is held; [mid] - appended, pending not yet incremented; [sig] - appended, eventfd
   not yet written. *)
Definition hold (pc : ppc) : Z := match pc with PLocked _ | PAppended _ => 1 | _ => 0 end.
Definition mid (pc : ppc) : Z := match pc with PAppended _ | PUnlocked _ => 1 | _ => 0 end.
Definition sig (pc : ppc) : Z := match pc with PAppended _ | PUnlocked _ | PCounted _ => 1 | _ => 0 end.
Definition lockbit (s : cstate) : Z := match c_lock s with Some _ => 1 | None => 0 end.
Definition cur_pc (l : lpc) : ppc := match l with LRunning (Some (_, _, pc)) => pc | _ => PIdle end.
Definition loop_hold (l : lpc) : Z := match l with LLocked | LSwapped => 1 | _ => hold (cur_pc l) end.

Fixpoint psum (w : ppc -> Z) (ps : list poster) : Z :=
  match ps with [] => 0 | p :: r => w (p_pc p) + psum w r end.

Lemma psum_upd w i v : forall ps p, nth_error ps i = Some p -> psum w (upd_nth i v ps) = psum w ps - w (p_pc p) + w (p_pc v).
Proof.
  induction i as [|i IH]; intros [|x ps] p H; cbn in *; try discriminate.
  - injection H as ->. lia.
  - rewrite (IH ps p H). lia.
Qed.
Arguments psum_upd {w i v ps p} _.

Lemma psum_zero w ps : (forall p, In p ps -> w (p_pc p) = 0) -> psum w ps = 0.
Proof.
  induction ps as [|x ps IH]; cbn; intros H; [reflexivity|].
  rewrite (H x), IH; auto.
Qed.

Lemma psum_pos w ps : (forall pc, 0 <= w pc) -> 0 < psum w ps -> exists i p, nth_error ps i = Some p /\ 0 < w (p_pc p).
Proof.
  intros Hw. induction ps as [|x ps IH]; cbn; intros H; [lia|].
  destruct (Z.ltb_spec 0 (w (p_pc x))) as [Hx|Hx].
  - exists O, x. split; [reflexivity|exact Hx].
  - destruct IH as (i & p & A & B); [pose proof (Hw (p_pc x)); lia|]. exists (S i), p. split; assumption.
Qed.

Lemma psum_nonneg w ps : (forall pc, 0 <= w pc) -> 0 <= psum w ps.
Proof. intros Hw. induction ps as [|x ps IH]; cbn; [lia|]. pose proof (Hw (p_pc x)). lia. Qed.

Lemma psum_ge w i : forall ps p, (forall pc, 0 <= w pc) -> nth_error ps i = Some p -> w (p_pc p) <= psum w ps.
Proof.
  induction i as [|i IH]; intros [|x ps] p Hw H; cbn in *; try discriminate.
  - injection H as ->. pose proof (psum_nonneg w ps Hw). lia.
  - pose proof (IH ps p Hw H). pose proof (Hw (p_pc x)). lia.
Qed.
Arguments psum_ge {w i ps p} _ _.

Definition batch_shape (s : cstate) : Prop :=
  match c_loop s with
  | LWait | LDrained | LLocked => c_batch s = []
  | LRunning (Some (h, _, _)) => exists o r, c_batch s = (o, h) :: r
  | _ => True
  end.

Definition wake_ok (s : cstate) : Prop :=
  c_posts s <> [] ->
  0 < c_evc s \/ 0 < psum sig (c_posters s) + sig (cur_pc (c_loop s)) \/ c_loop s = LDrained \/ c_loop s = LLocked.

Record cinv (s : cstate) : Prop := {
  i_flag : c_locked_run s = false;
  i_fifo : c_enq s = c_exec s ++ c_batch s ++ c_posts s;
  i_pend : c_pend s + psum mid (c_posters s) + mid (cur_pc (c_loop s)) = zlen (c_posts s) + zlen (c_batch s);
  i_lock : psum hold (c_posters s) + loop_hold (c_loop s) = lockbit s;
  i_wake : wake_ok s;
  i_evc : 0 <= c_evc s;
  i_batch : batch_shape s
}.

(* [wake_ok] as a count like the other two: the loop between its drain and its swap is itself a pending wake-up. *)
Definition loop_sig (l : lpc) : Z := match l with LDrained | LLocked => 1 | _ => sig (cur_pc l) end.
Definition wake (s : cstate) : Z := c_evc s + psum sig (c_posters s) + loop_sig (c_loop s).

Lemma hold_nonneg pc : 0 <= hold pc.  Proof. destruct pc; cbn; lia. Qed.
Lemma sig_nonneg pc : 0 <= sig pc.  Proof. destruct pc; cbn; lia. Qed.
Lemma loop_hold_nonneg l : 0 <= loop_hold l.
Proof. unfold loop_hold. destruct l; try lia; apply hold_nonneg. Qed.
Lemma loop_sig_nonneg l : 0 <= loop_sig l.
Proof. unfold loop_sig. destruct l; try lia; apply sig_nonneg. Qed.
Lemma lockbit_range s : 0 <= lockbit s <= 1.
Proof. unfold lockbit. destruct (c_lock s); lia. Qed.

Lemma wake_ok_iff s : 0 <= c_evc s -> wake_ok s <-> (c_posts s <> [] -> 0 < wake s).
Proof.
  intros He. pose proof (psum_nonneg sig (c_posters s) sig_nonneg).
  pose proof (loop_sig_nonneg (c_loop s)). unfold wake_ok, wake. split; intros W Hne; specialize (W Hne).
  - destruct W as [W|[W|[W|W]]]; [lia| |rewrite W; cbn; lia..].
    (* sig (cur_pc l) <= loop_sig l *)
    destruct (c_loop s); cbn in *; lia.
  - (* between drain and swap one of the last two disjuncts holds; elsewhere loop_sig l = sig (cur_pc l) *)
    destruct (c_loop s); cbn in *; auto; lia.
Qed.

Lemma cinv_wake {s} : cinv s -> c_posts s <> [] -> 0 < wake s.
Proof. intros Hi. apply wake_ok_iff; [exact (i_evc _ Hi)|exact (i_wake _ Hi)]. Qed.

Lemma cinv_intro s :
  c_locked_run s = false -> c_enq s = c_exec s ++ c_batch s ++ c_posts s ->
  c_pend s + psum mid (c_posters s) + mid (cur_pc (c_loop s)) = zlen (c_posts s) + zlen (c_batch s) ->
  psum hold (c_posters s) + loop_hold (c_loop s) = lockbit s ->
  (c_posts s <> [] -> 0 < wake s) -> 0 <= c_evc s -> batch_shape s -> cinv s.
Proof. intros. constructor; try assumption. apply wake_ok_iff; assumption. Qed.

(* [cinv] of an explicit state as arithmetic over its fields; leaves what is not immediate *)
Ltac cinv_fields := apply cinv_intro; unfold wake, lockbit, batch_shape; cbn; try assumption; try lia.

Definition next_pc (pc : ppc) (next : option Z) : ppc :=
  match pc with
  | PIdle => match next with Some h => PLocked h | None => PIdle end
  | PLocked h => PAppended h | PAppended h => PUnlocked h | PUnlocked h => PCounted h | PCounted _ => PIdle
  end.
Definition appended (who : tid) (pc : ppc) : list (tid * Z) := match pc with PLocked h => [(who, h)] | _ => [] end.

Set Implicit Arguments.
Record post_effect (s : cstate) (who : tid) (pc : ppc) (next : option Z) (s1 : cstate) (pc1 : ppc) : Prop := {
  pe_pc : pc1 = next_pc pc next;
  pe_posts : c_posts s1 = c_posts s ++ appended who pc;
  pe_enq : c_enq s1 = c_enq s ++ appended who pc;
  pe_batch : c_batch s1 = c_batch s;
  pe_exec : c_exec s1 = c_exec s;
  pe_posters : c_posters s1 = c_posters s;
  pe_loop : c_loop s1 = c_loop s;
  pe_flag : c_locked_run s1 = c_locked_run s;
  pe_pend : c_pend s1 + mid pc1 = c_pend s + mid pc + zlen (appended who pc);
  pe_lock : hold pc <= lockbit s -> lockbit s1 - hold pc1 = lockbit s - hold pc;
  pe_evc : c_evc s <= c_evc s1;
  pe_sig : c_evc s + sig pc <= c_evc s1 + sig pc1;
  pe_new : appended who pc <> [] -> sig pc1 = 1
}.
Unset Implicit Arguments.

Lemma post_stmt_spec {s who pc next s1 pc1} :
  post_stmt s who pc next = Some (s1, pc1) -> post_effect s who pc next s1 pc1.
Proof.
  unfold post_stmt. intros H.
  (* the five statements; the first needs a handler to post and the mutex free *)
  destruct pc; [destruct next; [destruct (c_lock s) eqn:El|]|..]; try discriminate.
  all: injection H as <- <-; constructor; unfold lockbit; cbn; rewrite ?El, ?app_nil_r.
  all: try reflexivity; try lia; try contradiction.
  (* unlock, by the holder: the lock bit was 1 *)
  destruct (c_lock s); lia.
Qed.

(* (the argument of the next Post, the rest of the program) *)
Definition fetch (pc : ppc) (todo : list Z) : option Z * list Z :=
  match pc, todo with PIdle, h :: r => (Some h, r) | _, td => (None, td) end.
(* The handler (h, todo, pc) the loop is running posts like a poster with program todo: [idleb (mkposter todo pc)] says
   that its next step is to return. *)
Definition idleb (p : poster) : bool := match p_pc p, p_todo p with PIdle, [] => true | _, _ => false end.

Lemma post_stmt_enabled s who pc todo :
  pc <> PIdle \/ (todo <> [] /\ c_lock s = None) -> post_stmt s who pc (fst (fetch pc todo)) <> None.
Proof.
  intros [H|[H1 H2]]; destruct pc; try discriminate; [contradiction|].
  destruct todo; [contradiction|]. cbn. rewrite H2. discriminate.
Qed.

Lemma tstep_poster s i :
  tstep s (TPoster i) =
  match nth_error (c_posters s) i with
  | None => None
  | Some p =>
      match post_stmt s (TPoster i) (p_pc p) (fst (fetch (p_pc p) (p_todo p))) with
      | None => None
      | Some (s1, pc1) => Some (set_posters s1 (upd_nth i (mkposter (snd (fetch (p_pc p) (p_todo p))) pc1) (c_posters s1)))
      end
  end.
Proof. cbn [tstep]. destruct (nth_error _ _) as [p|]; [|reflexivity]. destruct (p_pc p), (p_todo p); reflexivity. Qed.

Lemma tstep_handler {s h todo pc} :
  c_loop s = LRunning (Some (h, todo, pc)) ->
  tstep s TLoop =
  if idleb (mkposter todo pc) then
    Some (mkc (c_posts s) (tl (c_batch s)) (c_evc s) (c_lock s) (c_pend s - 1) (c_posters s) (LRunning None) (c_enq s)
            (c_exec s ++ firstn 1 (c_batch s)) (c_nest s) (c_locked_run s))
  else
    match post_stmt s TLoop pc (fst (fetch pc todo)) with
    | None => None
    | Some (s1, pc1) => Some (set_loop s1 (LRunning (Some (h, snd (fetch pc todo), pc1))))
    end.
Proof. intros E. cbn [tstep]. rewrite E. destruct pc, todo; reflexivity. Qed.

(* A poster, or the loop inside a handler, runs one statement of Post: [ps'] and [l'] are the threads afterwards, and
   each of the three sums moves by w pc1 - w pc. *)
Lemma post_step_inv {s who pc next s1 pc1} ps' l' :
  cinv s -> post_stmt s who pc next = Some (s1, pc1) ->
  psum mid ps' + mid (cur_pc l') = psum mid (c_posters s) + mid (cur_pc (c_loop s)) - mid pc + mid pc1 ->
  psum hold ps' + loop_hold l' = psum hold (c_posters s) + loop_hold (c_loop s) - hold pc + hold pc1 ->
  psum sig ps' + loop_sig l' = psum sig (c_posters s) + loop_sig (c_loop s) - sig pc + sig pc1 ->
  hold pc <= psum hold (c_posters s) + loop_hold (c_loop s) ->
  sig pc <= psum sig (c_posters s) + loop_sig (c_loop s) ->
  (batch_shape s -> batch_shape (set_loop s l')) ->
  cinv (set_posters (set_loop s1 l') ps').
Proof.
  intros Hi Hp Hm Hh Hs Gh Gs Hb. pose proof (post_stmt_spec Hp) as E.
  pose proof (i_pend _ Hi) as Ipend. pose proof (i_lock _ Hi) as Ilock. pose proof (i_evc _ Hi) as Ievc.
  pose proof (pe_evc E) as Hevc. pose proof (pe_sig E) as Hsig.
  apply cinv_intro; unfold wake; cbn.
  - rewrite (pe_flag E). exact (i_flag _ Hi).
  - rewrite (pe_enq E), (pe_exec E), (pe_batch E), (pe_posts E), (i_fifo _ Hi), <- !app_assoc. reflexivity.
  - pose proof (pe_pend E). rewrite (pe_posts E), (pe_batch E), zlen_app. lia.
  - pose proof (pe_lock E ltac:(lia)). unfold lockbit in *. cbn. lia.
  - pose proof (cinv_wake Hi) as Iwake. unfold wake in Iwake. pose proof (pe_new E) as Hnew.
    rewrite (pe_posts E). intros Hne. destruct (appended who pc).
    + rewrite app_nil_r in Hne. specialize (Iwake Hne). lia.
    + (* this very statement appended: the thread is now the pending wake-up *)
      specialize (Hnew ltac:(discriminate)). lia.
  - lia.
  - unfold batch_shape in *. cbn in *. rewrite (pe_batch E). exact (Hb (i_batch _ Hi)).
Qed.

Lemma tstep_loop_inv s s' : cinv s -> tstep s TLoop = Some s' -> cinv s'.
Proof.
  intros Hi Hs. pose proof (lockbit_range s) as Hlr. pose proof (psum_nonneg hold (c_posters s) hold_nonneg) as Hph.
  pose proof (psum_nonneg sig (c_posters s) sig_nonneg) as Hps.
  pose proof (i_flag _ Hi) as Iflag. pose proof (i_fifo _ Hi) as Ififo. pose proof (i_pend _ Hi) as Ipend.
  pose proof (i_lock _ Hi) as Ilock. pose proof (i_evc _ Hi) as Ievc. pose proof (i_batch _ Hi) as Ibatch.
  pose proof (cinv_wake Hi) as Iwake.
  unfold wake, lockbit, batch_shape in *.
  destruct (c_loop s) as [| | | |cur] eqn:El; cbn [cur_pc mid hold sig loop_hold loop_sig] in *.
  - (* LWait: the eventfd is drained, and the loop takes over the wake-up the counter stood for *)
    cbn [tstep] in Hs; rewrite El in Hs.
    destruct (Z.ltb_spec 0 (c_evc s)); [|discriminate]. injection Hs as <-. cinv_fields.
  - (* LDrained: nobody held the mutex, the loop is now its one holder *)
    cbn [tstep] in Hs; rewrite El in Hs.
    destruct (c_lock s); [discriminate|]. injection Hs as <-. cinv_fields.
  - (* LLocked: the queue becomes the batch, which was empty *)
    cbn [tstep] in Hs; rewrite El in Hs.
    injection Hs as <-. rewrite Ibatch in *. cinv_fields.
    + (* i_fifo *) rewrite app_nil_r. exact Ififo.
    + (* i_pend *) cbn in Ipend. lia.
    + (* the wake-up clause: the queue is empty *) intros Hne. contradiction.
  - (* LSwapped: unlock before any handler runs; [i_flag] selects the repaired code *)
    cbn [tstep] in Hs; rewrite El in Hs.
    injection Hs as <-. rewrite Iflag. cinv_fields.
  - destruct cur as [[[h todo] pc]|]; cbn [cur_pc mid hold sig] in *.
    + rewrite (tstep_handler El) in Hs. destruct (idleb (mkposter todo pc)) eqn:Ei.
      * (* it returns: the head of the batch has run, pending-- *)
        destruct pc; try discriminate. destruct todo; try discriminate. injection Hs as <-. cbn [mid hold sig] in *.
        destruct Ibatch as (o & r & Hb). rewrite Hb in *. cinv_fields.
        -- (* i_fifo *) rewrite Ififo, <- app_assoc. reflexivity.
        -- (* i_pend *) rewrite zlen_cons in *. lia.
      * destruct (post_stmt s TLoop pc (fst (fetch pc todo))) as [[s1 pc1]|] eqn:Ep; [|discriminate]. injection Hs as <-.
        pose proof (pe_posters (post_stmt_spec Ep)) as Eps.
        apply (post_step_inv (c_posters s1) _ Hi Ep); rewrite ?Eps, ?El.
        (* the three sums and the two bounds: the loop counts pc before and pc1 after *)
        1-5: cbn [cur_pc loop_hold loop_sig]; lia.
        unfold batch_shape. cbn. rewrite El. exact (fun H => H).
    + cbn [tstep] in Hs; rewrite El in Hs.
      destruct (c_batch s) as [|[o h] r] eqn:Hb; injection Hs as <-.
      * rewrite Iflag. cinv_fields. (* i_flag *) reflexivity.
      * (* i_fifo, i_pend, i_batch *) cinv_fields; rewrite Hb; [exact Ififo|exact Ipend|exists o, r; reflexivity].
Qed.

Lemma tstep_poster_inv s i s' : cinv s -> tstep s (TPoster i) = Some s' -> cinv s'.
Proof.
  intros Hi Hs. rewrite tstep_poster in Hs.
  destruct (nth_error (c_posters s) i) as [p|] eqn:En; [|discriminate].
  destruct (post_stmt s (TPoster i) (p_pc p) (fst (fetch (p_pc p) (p_todo p)))) as [[s1 pc1]|] eqn:Ep; [|discriminate]. injection Hs as <-.
  pose proof (pe_posters (post_stmt_spec Ep)) as Eps. pose proof (pe_loop (post_stmt_spec Ep)) as Elp.
  apply (post_step_inv _ (c_loop s1) Hi Ep); rewrite ?Eps, ?Elp.
  1-3: rewrite (psum_upd En); cbn [p_pc]; lia.
  - pose proof (psum_ge hold_nonneg En). pose proof (loop_hold_nonneg (c_loop s)). lia.
  - pose proof (psum_ge sig_nonneg En). pose proof (loop_sig_nonneg (c_loop s)). lia.
  - exact (fun H => H).
Qed.

Theorem tstep_inv s t s' : cinv s -> tstep s t = Some s' -> cinv s'.
Proof. destruct t; [apply tstep_loop_inv|apply tstep_poster_inv]. Qed.

Lemma cinv_init todos nest : cinv (cinit todos nest false).
Proof.
  assert (Hz : forall w, w PIdle = 0 -> psum w (map (fun td => mkposter td PIdle) todos) = 0).
  { intros w Hw. apply psum_zero. intros p Hp. apply in_map_iff in Hp. destruct Hp as (td & <- & _). exact Hw. }
  cinv_fields; rewrite ?Hz; try reflexivity. intros H. contradiction.
Qed.

Lemma crun_preserves (P : cstate -> Prop) :
  (forall s t s', P s -> tstep s t = Some s' -> P s') -> forall sched s, P s -> P (crun s sched).
Proof.
  intros Hstep. induction sched as [|t r IH]; intros s Hp; cbn [crun]; [exact Hp|].
  apply IH. destruct (tstep s t) eqn:E; [exact (Hstep _ _ _ Hp E)|exact Hp].
Qed.

Theorem crun_inv sched : forall s, cinv s -> cinv (crun s sched).
Proof. apply crun_preserves, tstep_inv. Qed.

Definition owned (i : nat) (l : list (tid * Z)) : list Z := map snd (filter (fun e => tid_eqb (fst e) (TPoster i)) l).
Definition lockpart (pc : ppc) : list Z := match pc with PLocked h => [h] | _ => [] end.
Definition ord_inv (todos : list (list Z)) (s : cstate) : Prop :=
  forall i p, nth_error (c_posters s) i = Some p -> nth_error todos i = Some (owned i (c_enq s) ++ lockpart (p_pc p) ++ p_todo p).

Lemma nth_upd_same {A} i (v : A) : forall l x, nth_error l i = Some x -> nth_error (upd_nth i v l) i = Some v.
Proof. induction i as [|i IH]; intros [|y l] x H; cbn in *; try discriminate; [reflexivity|eapply IH; eassumption]. Qed.
Arguments nth_upd_same {A i v l x} _.

Lemma nth_upd_other {A} i j (v : A) : i <> j -> forall l, nth_error (upd_nth i v l) j = nth_error l j.
Proof.
  revert j. induction i as [|i IH]; intros [|j] Hn [|y l]; cbn; try reflexivity; try congruence.
  apply IH. congruence.
Qed.
Arguments nth_upd_other {A i j v} _ l.

Lemma owned_app i a b : owned i (a ++ b) = owned i a ++ owned i b.
Proof. unfold owned. rewrite filter_app, map_app. reflexivity. Qed.

Lemma owned_appended i who pc : owned i (appended who pc) = if tid_eqb who (TPoster i) then lockpart pc else [].
Proof. unfold owned. destruct pc; cbn; destruct (tid_eqb who (TPoster i)); reflexivity. Qed.

(* the statement moves the handler from the program to the lock part, or from the lock part to the queue *)
Lemma fetch_lockpart pc todo : lockpart (next_pc pc (fst (fetch pc todo))) ++ snd (fetch pc todo) = todo.
Proof. destruct pc, todo; reflexivity. Qed.

Lemma tstep_loop_owned s s' :
  tstep s TLoop = Some s' -> c_posters s' = c_posters s /\ forall i, owned i (c_enq s') = owned i (c_enq s).
Proof.
  intros Hs. destruct (c_loop s) as [| | | |cur] eqn:El.
  (* the loop's own statements touch neither the posters nor the ghost queue *)
  - (* LWait *) cbn [tstep] in Hs; rewrite El in Hs.
    destruct (0 <? c_evc s); [|discriminate]. injection Hs as <-. split; reflexivity.
  - (* LDrained *) cbn [tstep] in Hs; rewrite El in Hs.
    destruct (c_lock s); [discriminate|]. injection Hs as <-. split; reflexivity.
  - (* LLocked *) cbn [tstep] in Hs; rewrite El in Hs. injection Hs as <-. split; reflexivity.
  - (* LSwapped *) cbn [tstep] in Hs; rewrite El in Hs. injection Hs as <-. split; reflexivity.
  - destruct cur as [[[h todo] pc]|].
    + rewrite (tstep_handler El) in Hs.
      destruct (idleb (mkposter todo pc)); [injection Hs as <-; split; reflexivity|].
      (* inside a handler's Post it appends under its own name *)
      destruct (post_stmt s TLoop pc (fst (fetch pc todo))) as [[s1 pc1]|] eqn:Ep; [|discriminate]. injection Hs as <-.
      pose proof (post_stmt_spec Ep) as E. split; [exact (pe_posters E)|].
      intros i. cbn [set_loop c_enq]. rewrite (pe_enq E), owned_app, owned_appended, app_nil_r. reflexivity.
    + cbn [tstep] in Hs; rewrite El in Hs.
      destruct (c_batch s) as [|[o h] r]; injection Hs as <-; split; reflexivity.
Qed.

Lemma tstep_ord todos s t s' : ord_inv todos s -> tstep s t = Some s' -> ord_inv todos s'.
Proof.
  intros Ho Hs i p. destruct t as [|j].
  - destruct (tstep_loop_owned _ _ Hs) as (A & B). rewrite A, B. apply Ho.
  - rewrite tstep_poster in Hs. destruct (nth_error (c_posters s) j) as [q|] eqn:En; [|discriminate].
    destruct (post_stmt s (TPoster j) (p_pc q) (fst (fetch (p_pc q) (p_todo q)))) as [[s1 pc1]|] eqn:Ep; [|discriminate]. injection Hs as <-.
    pose proof (post_stmt_spec Ep) as E.
    cbn [set_posters c_posters c_enq]. rewrite (pe_enq E), (pe_posters E), owned_app, owned_appended. cbn [tid_eqb].
    destruct (Nat.eqb_spec j i) as [->|Hne].
    + rewrite (nth_upd_same En). intros [= <-]. cbn [p_pc p_todo].
      rewrite (pe_pc E), fetch_lockpart, <- app_assoc. apply Ho. exact En.
    + rewrite (nth_upd_other Hne), app_nil_r. apply Ho.
Qed.

Lemma ord_init todos nest fl : ord_inv todos (cinit todos nest fl).
Proof.
  intros i p Hn. cbn in *. rewrite nth_error_map in Hn. destruct (nth_error todos i) as [td|]; [|discriminate].
  injection Hn as <-. reflexivity.
Qed.

Theorem crun_ord todos sched : forall s, ord_inv todos s -> ord_inv todos (crun s sched).
Proof. apply crun_preserves, tstep_ord. Qed.

Definition finished (s : cstate) : Prop :=
  forallb idleb (c_posters s) = true /\ c_posts s = [] /\ c_batch s = [] /\ c_loop s = LWait.

Lemma poster_enabled s i p :
  nth_error (c_posters s) i = Some p ->
  p_pc p <> PIdle \/ (p_todo p <> [] /\ c_lock s = None) ->
  tstep s (TPoster i) <> None.
Proof.
  intros Hn H. rewrite tstep_poster, Hn. pose proof (post_stmt_enabled s (TPoster i) _ _ H) as E.
  destruct (post_stmt _ _ _ _) as [[s1 pc1]|]; [discriminate|contradiction].
Qed.
Arguments poster_enabled {s i p} _ _.

Lemma loop_blocked {s} :
  tstep s TLoop = None -> (c_loop s = LWait /\ c_evc s <= 0) \/ (lockbit s = 1 /\ loop_hold (c_loop s) = 0).
Proof.
  unfold lockbit. cbn [tstep]. destruct (c_loop s) as [| | | |cur].
  - (* LWait: epoll_wait *) destruct (Z.ltb_spec 0 (c_evc s)); [discriminate|auto].
  - (* LDrained: lock *) destruct (c_lock s); [auto|discriminate].
  - (* LLocked *) discriminate.
  - (* LSwapped *) discriminate.
  - destruct cur as [[[h todo] pc]|].
    + (* of a handler's statements only the lock of a Post can block *)
      destruct pc; [destruct todo|..]; try discriminate. cbn. destruct (c_lock s); [auto|discriminate].
    + destruct (c_batch s) as [|[o h] r]; discriminate.
Qed.

(* the holder is a poster inside Post, which can move *)
Lemma holder_poster s : cinv s -> lockbit s = 1 -> loop_hold (c_loop s) = 0 -> exists t, tstep s t <> None.
Proof.
  intros Hi Hl Hz. pose proof (i_lock _ Hi) as Il.
  destruct (psum_pos hold (c_posters s) hold_nonneg ltac:(lia)) as (i & p & Hn & Hp).
  exists (TPoster i). eapply poster_enabled; [exact Hn|]. left. intros E. rewrite E in Hp. cbn in Hp. lia.
Qed.

Theorem progress s : cinv s -> ~ finished s -> exists t, tstep s t <> None.
Proof.
  intros Hi Hnf. destruct (tstep s TLoop) eqn:Es; [exists TLoop; rewrite Es; discriminate|].
  destruct (loop_blocked Es) as [[El Ee]|[Hk Hz]]; [|exact (holder_poster s Hi Hk Hz)].
  destruct (c_posts s) as [|x ps] eqn:Ep.
  - (* nothing queued: a poster has something left to post *)
    pose proof (i_batch _ Hi) as Ib. unfold batch_shape in Ib. rewrite El in Ib.
    destruct (forallb idleb (c_posters s)) eqn:Ef; [exfalso; apply Hnf; repeat split; assumption|].
    destruct (forallb_false _ _ Ef) as (i & p & Hn & Hp). unfold idleb in Hp.
    destruct (c_lock s) eqn:Ek; [apply (holder_poster s Hi); [unfold lockbit; rewrite Ek|rewrite El]; reflexivity|].
    exists (TPoster i). apply (poster_enabled Hn). destruct (p_pc p); try (left; discriminate).
    right. split; [|exact Ek]. destruct (p_todo p); discriminate.
  - (* something is queued and the loop sleeps: a poster is between its append and its eventfd write *)
    pose proof (cinv_wake Hi ltac:(rewrite Ep; discriminate)) as W. unfold wake in W. rewrite El in W. cbn in W.
    destruct (psum_pos sig (c_posters s) sig_nonneg ltac:(lia)) as (i & p & Hn & Hp).
    exists (TPoster i). apply (poster_enabled Hn). left. intros Epc. rewrite Epc in Hp. cbn in Hp. lia.
Qed.

Theorem finished_exactly_once todos s :
  cinv s -> ord_inv todos s -> finished s ->
  c_exec s = c_enq s /\ c_pend s = 0 /\
  forall i p, nth_error (c_posters s) i = Some p -> nth_error todos i = Some (owned i (c_exec s)).
Proof.
  intros Hi Ho (F1 & F2 & F3 & F4).
  assert (Hidle : forall p, In p (c_posters s) -> p_pc p = PIdle /\ p_todo p = []).
  { intros p Hp. pose proof (proj1 (forallb_forall _ _) F1 p Hp) as E. unfold idleb in E.
    destruct (p_pc p), (p_todo p); try discriminate. auto. }
  assert (Hex : c_exec s = c_enq s) by (rewrite (i_fifo _ Hi), F2, F3, !app_nil_r; reflexivity).
  split; [exact Hex|]. split.
  - pose proof (i_pend _ Hi) as Ip. rewrite F2, F3, F4, psum_zero in Ip; [cbn in Ip; lia|].
    intros p Hp. rewrite (proj1 (Hidle p Hp)). reflexivity.
  - intros i p Hn. destruct (Hidle p (nth_error_In _ _ Hn)) as [E1 E2].
    rewrite (Ho i p Hn), Hex, E1, E2. cbn. rewrite app_nil_r. reflexivity.
Qed.
