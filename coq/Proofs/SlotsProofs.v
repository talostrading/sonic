(* C20: the sorted slot container (sequencedSlots) and the Fenwick tree of Model/Slots.v. *)
From Sonic Require Import Base.Prelude Gen.Slot Model.Slots.
Local Open Scope Z_scope.

Fixpoint ssorted (l : list sslot) : Prop :=
  match l with
  | [] => True
  | (q, _) :: r => (match r with [] => True | (q', _) :: _ => q < q' end) /\ ssorted r
  end.

Fixpoint ss_find (l : list sslot) (seq : Z) : option Slot :=
  match l with [] => None | (q, s) :: r => if q =? seq then Some s else ss_find r seq end.

Definition lt_all (x : Z) (l : list sslot) : Prop := Forall (fun e => x < fst e) l.

Lemma ssorted_tail q s r : ssorted ((q, s) :: r) -> ssorted r.
Proof. cbn. tauto. Qed.

Lemma lt_all_weaken x y l : x <= y -> lt_all y l -> lt_all x l.
Proof. intros Hxy H. unfold lt_all in *. eapply Forall_impl; [|exact H]. cbn; intros; lia. Qed.

Lemma ssorted_lt_all q s r : ssorted ((q, s) :: r) -> lt_all q r.
Proof.
  revert q s. induction r as [|[q' s'] r IH]; intros q s [Hlt Hs]; [constructor|].
  constructor; [exact Hlt|]. apply (lt_all_weaken q q'); [lia|]. exact (IH q' s' Hs).
Qed.

Lemma ssorted_cons q s r : lt_all q r -> ssorted r -> ssorted ((q, s) :: r).
Proof.
  intros Ha Hs. cbn. split; [|exact Hs]. destruct r as [|[q' s'] r']; [exact I|]. inversion Ha; subst. assumption.
Qed.

Lemma find_none_lt_all x l : lt_all x l -> ss_find l x = None.
Proof.
  induction l as [|[q s] r IH]; intros H; [reflexivity|]. inversion H; subst. cbn in *.
  destruct (q =? x) eqn:E; [lia|]. apply IH. assumption.
Qed.

Lemma find_behind_head q s r seq : ssorted ((q, s) :: r) -> seq <= q -> ss_find r seq = None.
Proof. intros Hs Hle. exact (find_none_lt_all seq r (lt_all_weaken seq q r Hle (ssorted_lt_all q s r Hs))). Qed.

Lemma find_via_search l seq : ssorted l ->
  ss_find l seq = match nth_error l (search l seq) with
                  | Some (q, s) => if q =? seq then Some s else None
                  | None => None
                  end.
Proof.
  induction l as [|[q s] r IH]; intros Hs; [reflexivity|].
  cbn [search ss_find]. destruct (q >=? seq) eqn:E; cbn [nth_error].
  - destruct (q =? seq) eqn:E2; [reflexivity|]. apply (find_behind_head q s r seq Hs). lia.
  - destruct (q =? seq) eqn:E2; [lia|]. apply IH. eapply ssorted_tail; eauto.
Qed.

Definition ss_insert (l : list sslot) (seq : Z) (slot : Slot) : list sslot :=
  insert_at (search l seq) (seq, slot) l.

Lemma lt_all_insert x l seq slot : lt_all x l -> x < seq -> lt_all x (ss_insert l seq slot).
Proof.
  unfold ss_insert. induction l as [|[q s] r IH]; intros Ha Hx; cbn [search].
  - cbn. constructor; [cbn; lia|constructor].
  - inversion Ha; subst. destruct (q >=? seq); cbn [insert_at].
    + constructor; [cbn; lia|exact Ha].
    + constructor; [assumption|]. apply IH; assumption.
Qed.

Lemma insert_spec l seq slot : ssorted l -> ss_find l seq = None ->
  ssorted (ss_insert l seq slot) /\ ss_find (ss_insert l seq slot) seq = Some slot /\
  (forall x, x <> seq -> ss_find (ss_insert l seq slot) x = ss_find l x) /\
  zlen (ss_insert l seq slot) = zlen l + 1.
Proof.
  unfold ss_insert. induction l as [|[q s] r IH]; intros Hs Hn; cbn [search].
  - cbn. rewrite Z.eqb_refl. repeat split; auto. intros x Hx. destruct (seq =? x) eqn:E; [lia|reflexivity].
  - cbn [ss_find] in Hn. destruct (q =? seq) eqn:E0; [discriminate|].
    destruct (q >=? seq) eqn:E; cbn [insert_at].
    + split; [cbn; split; [lia|exact Hs]|]. cbn [ss_find]. rewrite Z.eqb_refl. repeat split; auto.
      * intros x Hx. destruct (seq =? x) eqn:E2; [lia|reflexivity].
      * rewrite !zlen_cons. lia.
    + destruct (IH (ssorted_tail _ _ _ Hs) Hn) as (H1 & H2 & H3 & H4).
      split.
      * apply ssorted_cons; [|exact H1].
        apply lt_all_insert; [eapply ssorted_lt_all; eauto|lia].
      * cbn [ss_find]. rewrite E0. split; [exact H2|]. split.
        -- intros x Hx. destruct (q =? x); [reflexivity|]. apply H3; exact Hx.
        -- rewrite !zlen_cons. lia.
Qed.

Lemma insert_at_end {A} (x : A) l : insert_at (length l) x l = l ++ [x].
Proof. induction l as [|y r IH]; cbn; [reflexivity|]. rewrite IH. reflexivity. Qed.

Lemma search_le_length l seq : (search l seq <= length l)%nat.
Proof. induction l as [|[q s] r IH]; cbn; [lia|]. destruct (q >=? seq); lia. Qed.

Lemma nth_error_none_search l seq : nth_error l (search l seq) = None -> search l seq = length l.
Proof. intros H. apply nth_error_None in H. pose proof (search_le_length l seq). lia. Qed.

Lemma lt_all_remove x l i : lt_all x l -> lt_all x (remove_at i l).
Proof.
  revert i. induction l as [|e r IH]; intros i Ha; destruct i; cbn; auto.
  - inversion Ha; assumption.
  - inversion Ha; subst. constructor; [assumption|]. apply IH; assumption.
Qed.

Lemma remove_spec l seq s0 : ssorted l -> ss_find l seq = Some s0 ->
  let l' := remove_at (search l seq) l in
  ssorted l' /\ ss_find l' seq = None /\ (forall x, x <> seq -> ss_find l' x = ss_find l x) /\
  zlen l' = zlen l - 1.
Proof.
  induction l as [|[q s] r IH]; intros Hs Hf; [discriminate|].
  cbn [search]. cbn [ss_find] in Hf. destruct (q >=? seq) eqn:E; cbn [remove_at].
  - (* seq is not behind the head, so it is the head's *)
    pose proof (find_behind_head q s r seq Hs ltac:(lia)) as Hb. rewrite Hb in Hf.
    destruct (q =? seq) eqn:E2; [|discriminate].
    split; [exact (ssorted_tail _ _ _ Hs)|]. split; [exact Hb|]. split; [|rewrite zlen_cons; lia].
    intros x Hx. cbn [ss_find]. replace (q =? x) with false by lia. reflexivity.
  - destruct (q =? seq) eqn:E2; [lia|].
    destruct (IH (ssorted_tail _ _ _ Hs) Hf) as (H1 & H2 & H3 & H4).
    split; [apply ssorted_cons; [apply lt_all_remove; eapply ssorted_lt_all; eauto|exact H1]|].
    cbn [ss_find]. rewrite E2. split; [exact H2|]. split.
    + intros x Hx. destruct (q =? x); [reflexivity|]. apply H3; exact Hx.
    + rewrite !zlen_cons. lia.
Qed.

Lemma ss_push_eq maxSlots l seq slot : ssorted l ->
  ss_push maxSlots l seq slot =
  match ss_find l seq with
  | Some _ => (l, false, false)
  | None => if zlen l >=? maxSlots then (l, false, true) else (ss_insert l seq slot, true, false)
  end.
Proof.
  intros Hs. unfold ss_push, ss_insert. rewrite (find_via_search l seq Hs).
  destruct (nth_error l (search l seq)) as [[q s]|] eqn:En.
  - destruct (q =? seq); reflexivity.
  - (* the search ran off the end, where inserting is appending *)
    rewrite (nth_error_none_search l seq En), insert_at_end. reflexivity.
Qed.

Lemma ss_pop_eq l seq : ssorted l ->
  ss_pop l seq = match ss_find l seq with
                 | Some s => (remove_at (search l seq) l, Some s)
                 | None => (l, None)
                 end.
Proof.
  intros Hs. unfold ss_pop. rewrite (find_via_search l seq Hs).
  destruct (nth_error l (search l seq)) as [[q s]|]; [destruct (q =? seq)|]; reflexivity.
Qed.

(* Write lowbit i for the lowest set bit of i+1.  Add walks i, i + lowbit i, ... and SumUntil walks q, q - lowbit q, ...
   (lor_succ, land_succ).  Node j stands for the index interval (j - lowbit j, j]: the tree represents the prefix sums
   pre when node j holds pre j - pre (j - lowbit j) (fw_inv), so SumUntil telescopes to pre q.  Add at i must put delta
   on exactly the nodes whose interval contains i: a node above i contains i iff it contains the next node of the walk,
   i + lowbit i, and lies at or above it (covers_next, by halving both numbers). *)

Fixpoint plow (p : positive) : positive :=
  match p with xO p' => xO (plow p') | _ => xH end.

Definition lowbit (i : Z) : Z := Zpos (plow (Z.to_pos (i + 1))).

Lemma lowbit_of_pos p : lowbit (Zpos p - 1) = Zpos (plow p).
Proof. unfold lowbit. rewrite Z.sub_add. reflexivity. Qed.

Lemma index_as_pos i : 0 <= i -> exists p, i = Zpos p - 1.
Proof. intros H. exists (Z.to_pos (i + 1)). lia. Qed.

Lemma bitop_double (op : Z -> Z -> Z) (f : bool -> bool -> bool) :
  (forall a b n, Z.testbit (op a b) n = f (Z.testbit a n) (Z.testbit b n)) ->
  forall a b c d, op (2 * a + Z.b2z c) (2 * b + Z.b2z d) = 2 * op a b + Z.b2z (f c d).
Proof.
  intros Hop a b c d. apply Z.bits_inj'. intros n Hn. rewrite Hop.
  destruct (Z.eq_dec n 0) as [->|Hn0].
  - rewrite !Z.testbit_0_r. reflexivity.
  - replace n with (Z.succ (n - 1)) by lia. rewrite !Z.testbit_succ_r by lia. symmetry. apply Hop.
Qed.

(* By the last bit of p.  An odd p and p - 1 differ in the last bit only.  For p = 2p', p - 1 = 2(p' - 1) + 1: the last
   bits give 0 under land and 1 under lor, and the halves are the induction hypothesis. *)
Lemma plow_walk p :
  Z.land (Zpos p - 1) (Zpos p) = Zpos p - Zpos (plow p) /\ Z.lor (Zpos p - 1) (Zpos p) = Zpos p - 1 + Zpos (plow p).
Proof.
  induction p as [p _|p [IHa IHo]|]; cbn [plow].
  - change (Zpos p~1 - 1) with (2 * Zpos p + Z.b2z false). change (Zpos p~1) with (2 * Zpos p + Z.b2z true).
    rewrite (bitop_double Z.land andb Z.land_spec), (bitop_double Z.lor orb Z.lor_spec), Z.land_diag, Z.lor_diag.
    cbn [Z.b2z andb orb]. lia.
  - replace (Zpos p~0 - 1) with (2 * (Zpos p - 1) + Z.b2z true) by (cbn [Z.b2z]; lia).
    change (Zpos p~0) with (2 * Zpos p + Z.b2z false).
    rewrite (bitop_double Z.land andb Z.land_spec), (bitop_double Z.lor orb Z.lor_spec), IHa, IHo.
    cbn [Z.b2z andb orb]. lia.
  - split; reflexivity.
Qed.

Lemma plow_le p : (plow p <= p)%positive.
Proof. induction p; cbn [plow]; lia. Qed.

(* By the last bits of z and x.  An odd z has the interval {z}, and x + plow x is even.  For z = 2z': x = 2x' is the
   induction hypothesis at x'; x = 2x'+1 steps to 2(x'+1), and the interval, which ends at an even number and has even
   length, contains 2x'+1 iff it contains 2x'+2. *)
Lemma plow_cover z : forall x, (x < z)%positive ->
  (Zpos z - Zpos (plow z) < Zpos x <->
   Zpos x + Zpos (plow x) <= Zpos z /\ Zpos z - Zpos (plow z) < Zpos x + Zpos (plow x)).
Proof.
  induction z as [z _|z IH|]; intros [x|x|] H; cbn [plow]; try specialize (IH x); lia.
Qed.

Lemma lowbit_bounds i : 0 <= i -> 1 <= lowbit i <= i + 1.
Proof. intros Hi. destruct (index_as_pos i Hi) as [p ->]. rewrite lowbit_of_pos. pose proof (plow_le p). lia. Qed.

Lemma lor_succ i : 0 <= i -> Z.lor i (i + 1) = i + lowbit i.
Proof.
  intros Hi. destruct (index_as_pos i Hi) as [p ->]. rewrite lowbit_of_pos, Z.sub_add. apply plow_walk.
Qed.

Lemma land_succ i : 0 <= i -> Z.land i (i + 1) - 1 = i - lowbit i.
Proof.
  intros Hi. destruct (index_as_pos i Hi) as [p ->]. rewrite lowbit_of_pos, Z.sub_add, (proj1 (plow_walk p)). lia.
Qed.

Definition covers (j i : Z) : bool := (j - lowbit j <? i) && (i <=? j).

Lemma covers_below j i : j < i -> covers j i = false.
Proof. intros H. unfold covers. lia. Qed.

Lemma covers_self i : 0 <= i -> covers i i = true.
Proof. intros H. pose proof (lowbit_bounds i H). unfold covers. lia. Qed.

Lemma covers_next j i : 0 <= i < j -> covers j (i + lowbit i) = covers j i.
Proof.
  intros H. destruct (index_as_pos i) as [x ->]; [lia|]. destruct (index_as_pos j) as [z ->]; [lia|].
  unfold covers. rewrite !lowbit_of_pos. pose proof (plow_cover z x). lia.
Qed.

(* node j's share of a step of height delta at i: the step at the upper end of its interval less that at the lower *)
Lemma covers_step j i delta : 0 <= j ->
  (if covers j i then delta else 0) = (if i <=? j then delta else 0) - (if i <=? j - lowbit j then delta else 0).
Proof.
  intros Hj. pose proof (lowbit_bounds j Hj). unfold covers.
  destruct (Z.leb_spec i (j - lowbit j)) as [Hlo|Hlo]; [|destruct (Z.leb_spec i j) as [Hhi|Hhi]].
  - replace (j - lowbit j <? i) with false by lia. replace (i <=? j) with true by lia. cbn [andb]. lia.
  - replace (j - lowbit j <? i) with true by lia. cbn [andb]. lia.
  - replace (j - lowbit j <? i) with true by lia. cbn [andb]. lia.
Qed.

Lemma upd_nat_length k x : forall l, length (upd_nat k x l) = length l.
Proof.
  induction k as [|k IH]; intros [|y l]; cbn; try reflexivity. rewrite IH. reflexivity.
Qed.

Lemma nth_upd_nat k x : forall l j, (k < length l)%nat ->
  nth j (upd_nat k x l) 0 = if Nat.eqb j k then x else nth j l 0.
Proof.
  induction k as [|k IH]; intros [|y l] [|j] H; cbn in *; try lia; try reflexivity. apply IH. lia.
Qed.

Lemma zlen_zupd i x d : zlen (zupd i x d) = zlen d.
Proof. unfold zlen, zupd. rewrite upd_nat_length. reflexivity. Qed.

Lemma znth_zupd i x d j : 0 <= i < zlen d -> 0 <= j -> znth j (zupd i x d) = if j =? i then x else znth j d.
Proof.
  intros Hi Hj. unfold znth, zupd, zlen in *. rewrite nth_upd_nat by lia.
  destruct (Nat.eqb_spec (Z.to_nat j) (Z.to_nat i)); destruct (Z.eqb_spec j i); try lia; reflexivity.
Qed.

Lemma add_loop_spec f : forall d i delta, 0 <= i -> zlen d - i <= Z.of_nat f ->
  exists d', fw_add_loop f d i delta = Ok d' /\ zlen d' = zlen d /\
             forall j, 0 <= j < zlen d -> znth j d' = znth j d + if covers j i then delta else 0.
Proof.
  induction f as [|f IH]; intros d i delta Hi Hf; cbn [fw_add_loop].
  - (* out of fuel: by Hf the walk is at or beyond the end of the tree, and no node covers i *)
    exists d. split; [reflexivity|]. split; [reflexivity|]. intros j Hj. rewrite covers_below by lia. lia.
  - destruct (Z.ltb_spec i (zlen d)) as [E|E].
    + replace (i <? 0) with false by lia. rewrite lor_succ by lia. pose proof (lowbit_bounds i Hi) as Hl.
      destruct (IH (zupd i (znth i d + delta) d) (i + lowbit i) delta) as (d' & E1 & L & C);
        [lia|rewrite zlen_zupd; lia|]. rewrite zlen_zupd in L, C.
      exists d'. split; [exact E1|]. split; [exact L|]. intros j Hj. rewrite (C j Hj), znth_zupd by lia.
      destruct (Z.lt_trichotomy j i) as [Hlt|[->|Hgt]].
      * rewrite !covers_below by lia. replace (j =? i) with false by lia. reflexivity.
      * rewrite Z.eqb_refl, covers_self, covers_below by lia. lia.
      * rewrite covers_next by lia. replace (j =? i) with false by lia. reflexivity.
    + exists d. split; [reflexivity|]. split; [reflexivity|]. intros j Hj. rewrite covers_below by lia. lia.
Qed.

Definition fw_inv (d : list Z) (pre : Z -> Z) : Prop :=
  pre (-1) = 0 /\ forall j, 0 <= j < zlen d -> znth j d = pre j - pre (j - lowbit j).

Lemma fw_inv_ext d pre pre' : (forall q, pre q = pre' q) -> fw_inv d pre -> fw_inv d pre'.
Proof. intros E [H0 H]. split; [rewrite <- E; exact H0|]. intros j Hj. rewrite <- !E. apply H, Hj. Qed.

Lemma zlen_fw_new n : zlen (fw_new n) = Z.max 0 n.
Proof. unfold zlen, fw_new. rewrite repeat_length. lia. Qed.

Lemma fw_new_inv n : fw_inv (fw_new n) (fun _ => 0).
Proof. split; [reflexivity|]. intros j _. unfold znth, fw_new. apply nth_repeat. Qed.

Lemma fw_add_spec d pre i delta : fw_inv d pre -> 0 <= i ->
  exists d', fw_add d i delta = Ok d' /\ zlen d' = zlen d /\
             fw_inv d' (fun q => pre q + if i <=? q then delta else 0).
Proof.
  intros [H0 H] Hi. destruct (add_loop_spec (S (length d)) d i delta Hi) as (d' & E & L & C); [unfold zlen; lia|].
  exists d'. split; [exact E|]. split; [exact L|].
  split; [cbv beta; replace (i <=? -1) with false by lia; lia|].
  intros j Hj. rewrite L in Hj. rewrite (C j Hj), (H j Hj), covers_step by lia. lia.
Qed.

Lemma sum_loop_spec f : forall d pre q acc, fw_inv d pre -> -1 <= q < zlen d -> q < Z.of_nat f ->
  fw_sum_loop f d q acc = Ok (acc + pre q).
Proof.
  induction f as [|f IH]; intros d pre q acc [H0 H] Hq Hf; cbn [fw_sum_loop].
  - (* out of fuel: by Hf the walk has arrived at -1 *)
    replace q with (-1) by lia. rewrite H0. f_equal. lia.
  - destruct (Z.geb_spec q 0) as [E|E].
    + replace (q <? zlen d) with true by lia. rewrite land_succ by lia. pose proof (lowbit_bounds q E).
      rewrite (IH d pre) by (try split; auto; lia). rewrite H by lia. f_equal. lia.
    + replace q with (-1) by lia. rewrite H0. f_equal. lia.
Qed.

Lemma fw_sum_until_spec d pre q : fw_inv d pre -> -1 <= q < zlen d -> fw_sum_until d q = Ok (pre q).
Proof.
  intros Hinv Hq. unfold fw_sum_until. rewrite (sum_loop_spec _ d pre) by (auto; unfold zlen in *; lia). reflexivity.
Qed.

(* the boolean with which C20_fenwick_unit_response_partial is stated *)
Definition fw_unit_ok (n i q : Z) : bool :=
  match fw_add (fw_new n) i 1 with
  | Ok t => match fw_sum_until t q with Ok v => v =? (if i <=? q then 1 else 0) | Panic => false end
  | Panic => false
  end.
