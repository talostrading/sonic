(* C19: the length-prefixed codec model (Model/LenCodec.v) against the pure parser (Spec/LenParser.v), as WsCodecProofs
   does for the frame decoder; also the transport lemmas that the stream proofs share (tr_read_spec,
   tr_write_all_healthy). *)
From Sonic Require Import Base.Prelude Base.ListLemmas Gen.Consts Spec.ThreeFifo Spec.LenParser
  Model.WsCodec Model.Transport Model.LenCodec Proofs.WsCodecProofs.
Local Open Scope Z_scope.

Definition linv (c : lcodec) : Prop :=
  l_reset c = true -> 0 <= l_bytes c <= zlen (t_read (l_src c)).

Lemma l_reset_spec c : linv c ->
  let c1 := l_reset_decode c in
  l_reset c1 = false /\ t_read (l_src c1) ++ t_pend (l_src c1) = l_unread c.
Proof.
  intros Hr. unfold l_reset_decode, l_unread.
  destruct (l_reset c) eqn:E; cbn [l_reset l_src].
  - rewrite (tconsume_stream (l_src c) (l_bytes c) (Hr E)). auto.
  - rewrite zdrop_nonpos by lia. auto.
Qed.

Lemma be32_nonneg l : bytes l -> 0 <= be32 l.
Proof. intros H. pose proof (be_bound l H). unfold be32, FrameParser.be in *. lia. Qed.

Theorem ldecode_spec c c' r :
  linv c -> bytes (l_unread c) -> ldecode c = (c', r) ->
  linv c' /\
  match lparse1 (l_unread c) with
  | LNeedMore => r = LDNeedMore /\ l_unread c' = l_unread c
  | LOverflow => r = LDOverflow /\ l_unread c' = l_unread c
  | LItem p rest => r = LDItem p /\ l_unread c' = rest
  end.
Proof.
  intros Hc HVb Hd. destruct (l_reset_spec c Hc) as (Hr1 & HV1).
  unfold ldecode in Hd. set (c1 := l_reset_decode c) in *. set (V := l_unread c) in *.
  unfold lparse1. fold V. change frame_HeaderLen with 4 in *.
  assert (Hstay : forall s d, t_read s ++ t_pend s = V -> (l_with c1 s, d) = (c', r) ->
            linv c' /\ r = d /\ l_unread c' = V).
  { intros s d Hs E. inversion E; subst c' r. unfold linv, l_unread, l_with; cbn [l_reset l_bytes l_src].
    rewrite Hr1, zdrop_nonpos by lia. split; [discriminate|]. auto. }
  destruct (tprep_spec (l_src c1) 4 V HV1) as (s1 & E1 & HVs1 & Hlen1). rewrite E1 in Hd.
  destruct (zlen V <? 4) eqn:L1; cbn [negb] in Hd.
  { exact (Hstay _ _ HVs1 Hd). }
  rewrite (tdata_spec s1 4 V HVs1) in Hd by lia.
  set (n := be32 (ztake 4 V)) in *.
  assert (Hn0 : 0 <= n) by (apply be32_nonneg, bytes_ztake, HVb).
  destruct (n >? frame_MaxPayloadLength) eqn:Ebig.
  { exact (Hstay _ _ HVs1 Hd). }
  destruct (tprep_spec s1 (4 + n) V HVs1) as (s2 & E2 & HVs2 & Hlen2). rewrite E2 in Hd.
  destruct (zlen V <? 4 + n) eqn:L2; cbn [negb] in Hd.
  { exact (Hstay (treserve s2 (4 + n)) _ HVs2 Hd). }
  destruct (tconsume_spec s2 4 ltac:(lia)) as [Hcr _]. pose proof (tconsume_stream s2 4 ltac:(lia)) as HV3.
  rewrite HVs2 in HV3.
  assert (Hl3 : zlen (t_read (tconsume s2 4)) = zlen (t_read s2) - 4) by (rewrite Hcr; apply zlen_zdrop; lia).
  rewrite (tdata_spec (tconsume s2 4) n _ HV3) in Hd by lia.
  set (s3 := tconsume s2 4) in *. clearbody s3.
  inversion Hd; subst; clear Hd.
  split.
  - unfold linv; cbn [l_reset l_bytes l_src]. intros _. lia.
  - split.
    + f_equal. unfold zsub. f_equal. lia.
    + unfold l_unread; cbn [l_reset l_bytes l_src]. rewrite HV3. rewrite zdrop_zdrop by lia. reflexivity.
Qed.

Lemma l_feed_spec c w : linv c -> linv (l_feed c w) /\ l_unread (l_feed c w) = l_unread c ++ w.
Proof.
  intros Hr. unfold l_feed, l_with, l_unread, linv in *; cbn [l_reset l_bytes l_src t_read t_pend].
  split; [exact Hr|].
  apply zdrop_stream_app. destruct (l_reset c); [apply Hr; reflexivity|apply zlen_nonneg].
Qed.

Lemma be_bytes4_eq k n : be_bytes4 k n = WsFrame.be_bytes k n.
Proof. reflexivity. Qed.

Theorem lroundtrip p rest : zlen p <= frame_MaxPayloadLength -> lparse1 (lencode p ++ rest) = LItem p rest.
Proof.
  intros Hp. pose proof (zlen_nonneg p) as Hp0. unfold lparse1, lencode. change frame_HeaderLen with 4.
  set (h := be_bytes4 4 (zlen p)).
  assert (Hh : zlen h = 4) by (unfold h; rewrite be_bytes4_eq; apply be_bytes_len).
  assert (Hv : be32 h = zlen p).
  { unfold h. rewrite be_bytes4_eq. apply (be_be_bytes 4). unfold frame_MaxPayloadLength in Hp. cbn. lia. }
  rewrite <- app_assoc. pose proof (zlen_nonneg rest).
  assert (Ht : ztake 4 (h ++ p ++ rest) = h) by (rewrite <- Hh; apply ztake_app_exact).
  rewrite Ht, Hv. rewrite !zlen_app, Hh.
  replace (4 + (zlen p + zlen rest) <? 4) with false by lia.
  replace (zlen p >? frame_MaxPayloadLength) with false by lia.
  replace (4 + (zlen p + zlen rest) <? 4 + zlen p) with false by lia.
  f_equal; rewrite <- Hh.
  - rewrite zsub_mid, ztake_all by lia. reflexivity.
  - rewrite zdrop_app_plus by lia. apply zdrop_app_exact.
Qed.

Fixpoint lparse_all (fuel : nat) (bs : list Z) : list (list Z) :=
  match fuel with
  | O => []
  | S f => match lparse1 bs with LItem p rest => p :: lparse_all f rest | _ => [] end
  end.

Definition flat (q : list inev) : list Z :=
  concat (map (fun e => match e with InData l => l | _ => [] end) q).

Definition evs_ok (q : list inev) : Prop :=
  Forall (fun e => match e with InData l => bytes l | _ => True end) q.

Lemma flat_bytes q : evs_ok q -> bytes (flat q).
Proof.
  induction q as [|e q IH]; intros H; [constructor|]. inversion H; subst. unfold flat; cbn [map concat].
  destruct e; [apply bytes_app; [assumption|apply IH; assumption]|apply IH; assumption|apply IH; assumption].
Qed.

Lemma tr_read_ev_spec q q' r : evs_ok q -> tr_read_ev q = (q', r) ->
  evs_ok q' /\
  match r with
  | RGot w => flat q = w ++ flat q' /\ bytes w /\ (length q' < length q)%nat
  | _ => flat q' = flat q
  end.
Proof.
  revert q' r. induction q as [|e q IH]; intros q' r Hok H; cbn [tr_read_ev] in H.
  - inversion H; subst. auto.
  - inversion Hok as [|? ? He Hq]; subst. destruct e as [[|x l]| |].
    + destruct (IH _ _ Hq H) as [H1 H2]. split; [exact H1|].
      change (flat (InData [] :: q)) with (flat q). cbn [length]. destruct r; intuition lia.
    + inversion H; subst. cbn [length]. repeat split; auto.
    + inversion H; subst. auto.
    + inversion H; subst. cbn [length]. repeat split; auto.
Qed.

Lemma tr_read_spec t t1 rr : evs_ok (tr_in t) -> tr_read t = (t1, rr) ->
  evs_ok (tr_in t1) /\
  match rr with
  | RGot w => flat (tr_in t) = w ++ flat (tr_in t1) /\ bytes w /\ (length (tr_in t1) < length (tr_in t))%nat
  | _ => flat (tr_in t1) = flat (tr_in t)
  end.
Proof.
  unfold tr_read. intros Hok H. destruct (tr_read_ev (tr_in t)) as [q r] eqn:E. inversion H; subst.
  exact (tr_read_ev_spec _ _ _ Hok E).
Qed.

Lemma tr_write_all_healthy t p : tr_wfail t < 0 ->
  tr_write_all t p = (mktr (tr_in t) (tr_wire t ++ p) (tr_wfail t) (tr_wblock t), zlen p, false).
Proof. intros H. unfold tr_write_all. replace (tr_wfail t <? 0) with true by lia. reflexivity. Qed.

Lemma lparse1_bytes V p rest : bytes V -> lparse1 V = LItem p rest -> bytes rest.
Proof.
  unfold lparse1. intros Hb.
  destruct (_ <? _); [discriminate|]. destruct (_ >? _); [discriminate|]. destruct (_ <? _); [discriminate|].
  intros H; inversion H; subst. apply bytes_zdrop, Hb.
Qed.

Lemma lparse1_app V w p rest : lparse1 V = LItem p rest -> lparse1 (V ++ w) = LItem p (rest ++ w).
Proof.
  unfold lparse1. change frame_HeaderLen with 4. pose proof (zlen_nonneg w).
  destruct (zlen V <? 4) eqn:E1; [discriminate|].
  assert (Ht : ztake 4 (V ++ w) = ztake 4 V) by (apply ztake_app_l; lia). rewrite Ht.
  set (n := be32 (ztake 4 V)).
  destruct (n >? frame_MaxPayloadLength) eqn:E2; [discriminate|].
  destruct (zlen V <? 4 + n) eqn:E3; [discriminate|].
  intros Hi; inversion Hi; subst; clear Hi.
  rewrite zlen_app. replace (zlen V + zlen w <? 4) with false by lia.
  replace (zlen V + zlen w <? 4 + n) with false by lia.
  f_equal.
  - rewrite zsub_app_l by lia. reflexivity.
  - rewrite zdrop_app_l by lia. reflexivity.
Qed.

Definition lstream (c : lcodec) (t : tr) : list Z := l_unread c ++ flat (tr_in t).

