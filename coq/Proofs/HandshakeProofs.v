(* C18 (Model/Handshake.v): the read loop conserves the byte stream and stops at the first blank line, whatever the
   segmentation ([read_head_post], [read_head_split]); a header line up to letter case and optional whitespace. *)
From Sonic Require Import Base.Prelude Base.ListLemmas Model.Handshake.
Local Open Scope Z_scope.

Fixpoint flat (tr : list tev) : list Z :=
  match tr with [] => [] | TChunk d :: r => d ++ flat r | _ :: r => flat r end.

Definition is_chunk (ev : tev) : bool := match ev with TChunk _ => true | _ => false end.

Lemma find_end_range : forall l i e, find_end l i = Some e -> i + 4 <= e <= i + zlen l.
Proof.
  induction l as [|a l IH]; intros i e H; [discriminate|].
  cbn [find_end] in H. destruct l as [|b [|c [|d l']]]; try discriminate.
  destruct ((a =? cCR) && (b =? cLF) && (c =? cCR) && (d =? cLF)).
  - inversion H; subst. rewrite !zlen_cons. pose proof (zlen_nonneg l'). lia.
  - specialize (IH (i + 1) e H). rewrite (zlen_cons a). lia.
Qed.
Arguments find_end_range {l i e}.

(* With fewer than four bytes in p neither side can hold (find_end_range); with four or more both sides test the same
   four bytes. *)
Lemma find_end_app : forall p q i e, e <= i + zlen p -> find_end (p ++ q) i = Some e <-> find_end p i = Some e.
Proof.
  assert (Hshort : forall p q i e, zlen p < 4 -> e <= i + zlen p -> find_end (p ++ q) i = Some e <-> find_end p i = Some e)
    by (intros p q i e Hs He; split; intros H; apply find_end_range in H; lia).
  induction p as [|a p IH]; intros q i e He; [apply Hshort; [reflexivity|exact He]|].
  destruct p as [|b [|c [|d p']]]; try (apply Hshort; [reflexivity|exact He]).
  cbn [app find_end]. destruct ((a =? cCR) && (b =? cLF) && (c =? cCR) && (d =? cLF)); [reflexivity|].
  apply IH. rewrite (zlen_cons a) in He. lia.
Qed.

Lemma find_end_prefix {p} q {i e} : find_end p i = Some e -> find_end (p ++ q) i = Some e.
Proof. intros H. apply find_end_app; [apply find_end_range in H; lia|exact H]. Qed.

Lemma tread_flat {room tr d err tr1} : tread room tr = (d, err, tr1) -> flat tr = d ++ flat tr1.
Proof.
  unfold tread. intros H. destruct tr as [|[c| |] r]; try (inversion H; subst; reflexivity).
  destruct (zlen c <=? room); inversion H; subst; cbn [flat]; [reflexivity|].
  rewrite app_assoc, ztake_zdrop_split. reflexivity.
Qed.

(* The two ways the read loop makes progress on a transport that only delivers data: a Read uses up a segment or fills
   the room. *)
Lemma tread_chunks room tr :
  forallb is_chunk tr = true -> tr <> [] -> 0 <= room ->
  exists d tr1, tread room tr = (d, 0, tr1) /\ forallb is_chunk tr1 = true /\
                (zlen tr1 < zlen tr /\ zlen d <= room \/ zlen tr1 = zlen tr /\ zlen d = room).
Proof.
  intros Hch Hne Hr. destruct tr as [|[c| |] r]; try discriminate; [contradiction|]. cbn [forallb is_chunk andb] in Hch.
  cbn [tread]. destruct (zlen c <=? room) eqn:E.
  - exists c, r. split; [reflexivity|]. split; [exact Hch|]. left. unfold zlen in *; cbn [length]. lia.
  - exists (ztake room c), (TChunk (zdrop room c) :: r). split; [reflexivity|]. split; [exact Hch|]. right.
    rewrite zlen_ztake by lia. unfold zlen; cbn [length]. lia.
Qed.

Lemma read_head_post fuel : forall buf cap tr,
  match read_head fuel buf cap tr with
  | HDone buf1 e tr1 => buf1 ++ flat tr1 = buf ++ flat tr /\ find_end buf1 0 = Some e
  | HFail c _ => c <> 0
  | HFuel => True
  end.
Proof.
  induction fuel as [|f IH]; intros buf cap tr; cbn [read_head]; [exact I|].
  destruct ((zlen buf =? cap) && (hs_limit <=? cap)); [lia|].
  destruct (tread _ tr) as [[d err] tr2] eqn:Et. rewrite (tread_flat Et), app_assoc.
  destruct (find_end (buf ++ d) 0) as [e0|] eqn:Ef; [auto|].
  destruct (err =? 0); [apply IH|]. destruct (err =? 1); lia.
Qed.

Lemma read_head_done {fuel buf cap tr buf1 e tr1} :
  read_head fuel buf cap tr = HDone buf1 e tr1 -> buf1 ++ flat tr1 = buf ++ flat tr /\ find_end buf1 0 = Some e.
Proof. intros H. pose proof (read_head_post fuel buf cap tr) as P. rewrite H in P. exact P. Qed.

Lemma read_head_split {fuel buf cap tr buf1 e tr1} :
  read_head fuel buf cap tr = HDone buf1 e tr1 ->
  find_end (buf ++ flat tr) 0 = Some e /\
  ztake e buf1 = ztake e (buf ++ flat tr) /\ zdrop e buf1 ++ flat tr1 = zdrop e (buf ++ flat tr).
Proof.
  intros H. destruct (read_head_done H) as [A B]. rewrite <- A.
  pose proof (find_end_range B) as R.
  rewrite ztake_app_l, zdrop_app_l by lia. auto using find_end_prefix.
Qed.

Lemma handshake_done s tr expected {buf e tr2} :
  read_head hs_fuel [] (Z.max hs_buffer_size (h_cap s)) tr = HDone buf e tr2 -> hs_verdict (ztake e buf) expected = 0 ->
  exists cap, handshake s tr expected = (mkhs 1 (zdrop e buf) cap, 0, tr2).
Proof. intros Hr Hv. unfold handshake. cbv zeta. rewrite Hr, Hv. eexists. reflexivity. Qed.

Lemma list_eqb_eq a : forall b, list_eqb a b = true <-> a = b.
Proof.
  induction a as [|x a IH]; intros [|y b]; cbn; split; intros H; try reflexivity; try discriminate.
  - apply andb_prop in H. destruct H as [H1 H2]. apply IH in H2. f_equal; [lia|exact H2].
  - inversion H; subst. rewrite Z.eqb_refl. cbn. apply IH. reflexivity.
Qed.

Lemma ltrim_ows ws l : forallb is_ows ws = true -> ltrim (ws ++ l) = ltrim l.
Proof.
  induction ws as [|w ws IH]; cbn; intros H; [reflexivity|].
  apply andb_prop in H. destruct H as [H1 H2]. rewrite H1. exact (IH H2).
Qed.

Lemma ltrim_id l : match l with a :: _ => is_ows a = false | [] => True end -> ltrim l = l.
Proof. destruct l as [|a l]; cbn; intros H; [reflexivity|]. rewrite H. reflexivity. Qed.

Theorem trim_ows ws1 ws2 v :
  forallb is_ows ws1 = true -> forallb is_ows ws2 = true ->
  match v with a :: _ => is_ows a = false | [] => True end ->
  match rev v with a :: _ => is_ows a = false | [] => True end ->
  trim (ws1 ++ v ++ ws2) = v.
Proof.
  intros H1 H2 Hv Hr. unfold trim. rewrite ltrim_ows by exact H1.
  destruct v as [|a v].
  - cbn [app]. rewrite <- (app_nil_r ws2), ltrim_ows by exact H2. reflexivity.
  - rewrite (ltrim_id ((a :: v) ++ ws2)) by exact Hv.
    rewrite rev_app_distr. rewrite ltrim_ows by (rewrite forallb_rev; exact H2).
    rewrite ltrim_id by exact Hr. apply rev_involutive.
Qed.

Lemma split_at_app c name rest :
  forallb (fun b => negb (b =? c)) name = true -> forall acc, split_at c (name ++ c :: rest) acc = Some (acc ++ name, rest).
Proof.
  induction name as [|a name IH]; cbn; intros H acc.
  - rewrite Z.eqb_refl, app_nil_r. reflexivity.
  - apply andb_prop in H. destruct H as [H1 H2]. destruct (a =? c); [discriminate|].
    rewrite (IH H2). rewrite <- app_assoc. reflexivity.
Qed.

