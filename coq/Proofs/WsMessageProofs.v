(* C06, whole messages: the message API and the continuation of a parked read, over a stream that holds the frames of
   one conforming message in any segmentation.  By induction over the frame list on top of the per-frame theorems of
   WsStreamProofs (ws_read_loop_spec, flush_gen_healthy). *)
From Sonic Require Import Base.Prelude Base.ListLemmas Gen.Consts Gen.Preds Spec.ThreeFifo Model.WsFrame
  Spec.FrameParser Model.WsCodec Model.Transport Model.WsStream Proofs.WsCodecProofs Proofs.LenCodecProofs Proofs.WsStreamProofs.
Local Open Scope Z_scope.

(* no EOF, no error; the lemmas named ..._data below, except msg_frame_data, are about such a transport *)
Definition is_data_ev (e : inev) : bool := match e with InData _ => true | _ => false end.
Definition all_data (q : list inev) : Prop := forallb is_data_ev q = true.

Lemma tr_read_ev_all_data q : forall q' r, all_data q -> tr_read_ev q = (q', r) ->
  all_data q' /\ ((exists w, r = RGot w) \/ (r = RWouldBlock /\ q' = [] /\ wflat q = [])).
Proof.
  induction q as [|e q IH]; intros q' r Ha H; cbn [tr_read_ev] in H.
  - inversion H; subst. split; [reflexivity|]. right. auto.
  - unfold all_data in Ha. cbn [forallb] in Ha. apply andb_true_iff in Ha as [He Hq].
    destruct e as [l| |]; try discriminate. destruct l as [|x l].
    + exact (IH _ _ Hq H).
    + inversion H; subst. split; [exact Hq|]. left; eauto.
Qed.
Arguments tr_read_ev_all_data {q q' r}.

Lemma tr_read_all_data t t1 rr : all_data (tr_in t) -> tr_read t = (t1, rr) ->
  all_data (tr_in t1) /\ match rr with RGot _ => True | RWouldBlock => wflat (tr_in t) = [] | _ => False end.
Proof.
  unfold tr_read. intros Ha H. destruct (tr_read_ev (tr_in t)) as [q r] eqn:E. inversion H; subst.
  destruct (tr_read_ev_all_data Ha E) as [Hq [[w ->]|(-> & _ & Hnil)]]; auto.
Qed.
Arguments tr_read_all_data {t t1 rr}.

Lemma parse1_toobig_app max V w : parse1 max V = PTooBig -> parse1 max (V ++ w) = PTooBig.
Proof. intros H. pose proof (parse1_decided max V w) as D. rewrite H in D. exact D. Qed.

Lemma ws_read_loop_data fuel : forall c t async c' t' r,
  cinv c -> bytes (unread c) -> wevs_ok (tr_in t) -> all_data (tr_in t) -> (length (tr_in t) < fuel)%nat ->
  ws_read_loop fuel c t async = (c', t', r) ->
  all_data (tr_in t') /\
  match parse1 (c_max c) (wstream c t) with
  | PFrame f rest => r = RdFrame f /\ wstream c' t' = rest
  | PNeedMore => r = if async then RdPending else RdErr eWouldBlock
  | PTooBig => r = RdErr ePayloadOverMax
  end.
Proof.
  induction fuel as [|fu IH]; intros c t async c' t' r Hc Hb Ht Ha Hf H; [lia|].
  cbn [ws_read_loop] in H. destruct (decode c) as [c1 dr] eqn:Ed.
  destruct (decode_spec c c1 dr Hc Hb Ed) as (Hc1 & Hm1 & Hsp).
  destruct (parse1 (c_max c) (unread c)) as [| |raw rest0] eqn:Ep; destruct Hsp as [-> Hu].
  - destruct (tr_read t) as [t1 rr] eqn:Er. destruct (tr_read_all_data Ha Er) as [Ha1 Hrr].
    rewrite <- Hu in Hb. assert (Hs : wstream c1 t = wstream c t) by (unfold wstream; rewrite Hu; reflexivity).
    destruct rr as [w| | |]; try contradiction.
    + destruct (ws_feed_read _ _ _ _ Hc1 Hb Ht Er) as (Hc2 & Hb2 & Ht2 & Hm2 & Hs2 & Hlen).
      rewrite <- Hs, <- Hs2, <- Hm1, <- Hm2. apply IH; [assumption..|lia|exact H].
    + inversion H; subst. unfold wstream at 1. rewrite Hrr, app_nil_r, Ep. auto.
  - inversion H; subst. unfold wstream. rewrite (parse1_toobig_app _ _ _ Ep). auto.
  - inversion H; subst. unfold wstream. rewrite (parse1_app _ _ _ _ _ Ep). auto.
Qed.
Arguments ws_read_loop_data {fuel c t async c' t' r}.

(* Conforming frames: handle_frame accepts them without an error (frame_conf_err) and without a change of anything the
   message loop looks at (handle_frame_conf).  A Close is left out: handle_control answers it by a change of w_state
   after which can_read fails, so it is not one of the frames of a message. *)
Definition ctl_conf (f : list Z) : bool :=
  (verify_frame f =? eNone) && is_fin f && (payload_length f <=? ws_MaxControlFramePayloadLength)
  && ((opcode_of f =? ws_OpcodePing) || (opcode_of f =? ws_OpcodePong)).

(* last conjunct: msg_frame fails the message (eMessageTooBig) when it has not copied payload_length f bytes *)
Definition data_conf (f : list Z) : bool :=
  (verify_frame f =? eNone) && negb (Opcode_IsReserved (opcode_of f)) && (payload_length f =? zlen (payload_of f)).

Definition frame_conf (f : list Z) : bool := if Opcode_IsControl (opcode_of f) then ctl_conf f else data_conf f.

(* all that a read looks at; left free is what is queued for writing (w_pending, w_dst, w_keys, w_log) *)
Definition same_in (s s1 : ws) : Prop :=
  w_state s1 = w_state s /\ w_codec s1 = w_codec s /\ w_tr s1 = w_tr s /\ w_max s1 = w_max s /\ w_rpend s1 = w_rpend s.

Lemma queue_frame_same_in s fin op p : same_in s (queue_frame s fin op p).
Proof. rewrite queue_frame_eq. repeat split. Qed.

Lemma frame_conf_err f : frame_conf f = true -> frame_err f = eNone.
Proof.
  unfold frame_conf, frame_err. destruct (Opcode_IsControl (opcode_of f)) eqn:Ec.
  - unfold ctl_conf. rewrite !andb_true_iff. intros [[[Hv Hfin] Hl] _]. rewrite Hv. cbn [negb].
    apply (control_err_ok f Ec). rewrite Hfin. cbn [negb orb]. lia.
  - unfold data_conf. rewrite !andb_true_iff. intros [[Hv Hr] _]. rewrite Hv. cbn [negb].
    unfold handle_data. apply negb_true_iff in Hr. rewrite Hr. reflexivity.
Qed.

Lemma handle_frame_conf s f : frame_conf f = true -> exists s1, handle_frame s f = (s1, eNone) /\ same_in s s1.
Proof.
  intros Hc. rewrite handle_frame_eq, (frame_conf_err f Hc). eexists; split; [reflexivity|].
  unfold frame_conf in Hc. destruct (Opcode_IsControl (opcode_of f)); [|repeat split; reflexivity].
  unfold ctl_conf in Hc. rewrite !andb_true_iff, orb_true_iff, !Z.eqb_eq in Hc. destruct Hc as [_ [Hop|Hop]].
  - rewrite (on_control_ping s f Hop). destruct (w_state s =? ws_StateActive); [apply queue_frame_same_in|repeat split; reflexivity].
  - rewrite (on_control_pong s f Hop). repeat split; reflexivity.
Qed.

Definition St (s : ws) : Prop :=
  wire_inv s /\ cinv (w_codec s) /\ bytes (unread (w_codec s)) /\ wevs_ok (tr_in (w_tr s)) /\
  all_data (tr_in (w_tr s)) /\ can_read s = true.

Lemma St_wire s : St s -> wire_inv s.
Proof. intros H. exact (proj1 H). Qed.

Lemma St_can_read s : St s -> can_read s = true.
Proof. intros (_ & _ & _ & _ & _ & H). exact H. Qed.

Lemma St_same_codec_in s s1 : St s -> wire_inv s1 -> w_codec s1 = w_codec s -> tr_in (w_tr s1) = tr_in (w_tr s) ->
  w_state s1 = w_state s -> St s1.
Proof. intros (_ & Hrest) Hw Hc Hin Hst. unfold St, can_read in *. rewrite Hc, Hin, Hst. exact (conj Hw Hrest). Qed.

Definition sstream (s : ws) : list Z := wstream (w_codec s) (w_tr s).

Lemma bytes_wflat q : wevs_ok q -> bytes (wflat q).
Proof. exact (flat_bytes q). Qed.

Lemma St_bytes s : St s -> bytes (sstream s) /\ 0 <= c_max (w_codec s).
Proof.
  intros (_ & Hc & Hb & Ht & _). split; [apply bytes_app; [exact Hb|apply bytes_wflat; exact Ht]|].
  destruct Hc as [_ Hm]. lia.
Qed.
Arguments St_bytes {s}.

Lemma parse1_shrinks max V f r : bytes V -> 0 <= max -> parse1 max V = PFrame f r -> zlen r + 2 <= zlen V.
Proof.
  intros Hb _ Hp. destruct (parse1_bounded _ _ _ _ Hb Hp) as (_ & Hlen & _ & Hsplit).
  pose proof (sp_ext_cases V) as He. pose proof (sp_plen_u64_bound V Hb) as Hpl.
  assert (Hz : zlen V = zlen f + zlen r) by (rewrite <- Hsplit at 1; apply zlen_app).
  pose proof (sp_total_range V) as Ht. lia.
Qed.
Arguments parse1_shrinks {max V f r}.

Lemma St_set_rpend s k : St s -> St (set_rpend s k).
Proof.
  intros HSt. apply (St_same_codec_in s); [exact HSt| |reflexivity..].
  exact (same_out_wire _ _ (set_rpend_out s k) (St_wire s HSt)).
Qed.

Lemma flush_ok async s s0 e : St s -> flush_gen async s = (s0, e) ->
  e = eNone /\ St s0 /\ sstream s0 = sstream s /\ w_state s0 = w_state s /\ w_max s0 = w_max s /\
  w_codec s0 = w_codec s /\ w_rpend s0 = w_rpend s.
Proof.
  intros HSt Ef.
  destruct (flush_gen_healthy async s (St_wire s HSt)) as (d & t & E & Hin & _ & Hw0).
  rewrite E in Ef. inversion Ef; subst s0 e. split; [reflexivity|].
  split; [exact (St_same_codec_in s _ HSt Hw0 eq_refl Hin eq_refl)|].
  unfold sstream, wstream. cbn. rewrite Hin. auto.
Qed.
Arguments flush_ok {async s s0 e}.

Definition step_ok (s s1 : ws) (rest : list Z) : Prop :=
  St s1 /\ sstream s1 = rest /\ w_state s1 = w_state s /\ w_max s1 = w_max s /\
  c_max (w_codec s1) = c_max (w_codec s) /\ w_rpend s1 = w_rpend s.

Lemma step_ok_St s s1 rest : step_ok s s1 rest -> St s1.
Proof. intros H. exact (proj1 H). Qed.
Arguments step_ok_St {s s1 rest}.

Definition frame_read (async : bool) (s s1 : ws) (r : fres) : Prop :=
  match parse1 (c_max (w_codec s)) (sstream s) with
  | PFrame f rest => frame_conf f = true -> r = FGot f eNone /\ step_ok s s1 rest
  | PNeedMore => async = true -> r = FPending /\ step_ok s s1 (sstream s)
  | PTooBig => True
  end.

Lemma frame_read_conf async s s1 r f rest :
  frame_read async s s1 r -> parse1 (c_max (w_codec s)) (sstream s) = PFrame f rest -> frame_conf f = true ->
  r = FGot f eNone /\ step_ok s s1 rest.
Proof. unfold frame_read. intros Hd Hp. rewrite Hp in Hd. exact Hd. Qed.
Arguments frame_read_conf {async s s1 r f rest}.

Lemma frame_read_pending s s1 r :
  frame_read true s s1 r -> parse1 (c_max (w_codec s)) (sstream s) = PNeedMore -> r = FPending /\ step_ok s s1 (sstream s).
Proof. unfold frame_read. intros Hd Hp. rewrite Hp in Hd. exact (Hd eq_refl). Qed.
Arguments frame_read_pending {s s1 r}.

Lemma read_and_handle_data async s s1 r : St s -> read_and_handle async s = (s1, r) -> frame_read async s s1 r.
Proof.
  intros (Hw & Hc & Hb & Ht & Ha & Hcr) H. unfold frame_read.
  pose proof (read_and_handle_P _ _ _ wire_preserved async s Hw) as Hw1. rewrite H in Hw1.
  unfold read_and_handle in H.
  destruct (ws_read_loop (rfuel (w_tr s)) (w_codec s) (w_tr s) async) as [[c t] rr] eqn:Er.
  assert (Hlen : (length (tr_in (w_tr s)) < rfuel (w_tr s))%nat) by (unfold rfuel; lia).
  destruct (ws_read_loop_data Hc Hb Ht Ha Hlen Er) as [Ha' Hr].
  destruct (ws_read_loop_spec _ _ _ _ _ _ _ Hc Hb Ht Hlen Er) as (Hc' & Hb' & Ht' & Hm' & Hsp).
  assert (Hio : forall s2 rest, wire_inv s2 -> same_in (set_io s c t) s2 -> wstream c t = rest -> step_ok s s2 rest).
  { intros s2 rest Hw2 (Hst & Hcd & Htr & Hmx & Hrp) <-. cbn in Hst, Hcd, Htr, Hmx, Hrp.
    unfold step_ok, St, sstream, can_read. rewrite Hst, Hcd, Htr, Hmx, Hrp. tauto. }
  fold (sstream s) in Hr. destruct (parse1 (c_max (w_codec s)) (sstream s)) as [| |f rest]; [|exact I|].
  - intros ->. subst rr. cbn [after_read] in H. inversion H; subst s1 r; clear H.
    split; [reflexivity|]. apply Hio; [exact Hw1|repeat split|exact Hsp].
  - intros Hconf. destruct Hr as [-> Hrest]. cbn [after_read] in H.
    destruct (handle_frame_conf (set_io s c t) f Hconf) as (s2 & Hh & Hsame). rewrite Hh in H.
    inversion H; subst s1 r; clear H. split; [reflexivity|]. apply Hio; assumption.
Qed.
Arguments read_and_handle_data {async s s1 r}.

(* the flush changes nothing that the read looks at *)
Lemma next_frame_data async s s1 r : St s -> next_frame_gen async s = (s1, r) -> frame_read async s s1 r.
Proof.
  intros HSt H.
  unfold next_frame_gen in H. destruct (flush_gen async s) as [s0 fe] eqn:Ef.
  destruct (flush_ok HSt Ef) as (-> & HSt0 & Hss0 & Hst0 & Hmx0 & Hc0 & Hrp0).
  change (negb (eNone =? eNone)) with false in H. cbv iota in H.
  rewrite (St_can_read s0 HSt0) in H. cbn [negb] in H.
  destruct (read_and_handle async s0) as [s2 r2] eqn:Er.
  pose proof (read_and_handle_data HSt0 Er) as Hd. unfold frame_read, step_ok in *.
  rewrite Hc0, Hss0, Hst0, Hmx0, Hrp0 in Hd.
  destruct (parse1 (c_max (w_codec s)) (sstream s)) as [| |f rest]; [|exact I|].
  - intros Ea. destruct (Hd Ea) as [-> Hok]. inversion H; subst s1 r. auto.
  - intros Hconf. destruct (Hd Hconf) as [-> Hok].
    change (eNone =? eEOF) with false in H. rewrite andb_false_r in H. inversion H; subst s1 r. auto.
Qed.
Arguments next_frame_data {async s s1 r}.

Lemma msg_frame_ctl async s buflen acc cont mtype f : Opcode_IsControl (opcode_of f) = true ->
  msg_frame async s buflen acc cont mtype f eNone = (s, MMore acc cont mtype [ECtl (opcode_of f) (payload_of f)]).
Proof. intros Hc. unfold msg_frame. change (negb (eNone =? eNone)) with false. cbv iota. rewrite Hc. reflexivity. Qed.

Lemma msg_frame_data async s buflen acc cont mtype f :
  Opcode_IsControl (opcode_of f) = false ->
  zlen acc + zlen (payload_of f) <= buflen -> zlen acc + zlen (payload_of f) <= w_max s ->
  payload_length f = zlen (payload_of f) ->
  Opcode_IsContinuation (opcode_of f) = cont ->
  let mt := if mtype =? ws_TypeNone then opcode_of f else mtype in
  let acc' := acc ++ payload_of f in
  msg_frame async s buflen acc cont mtype f eNone =
    (s, if is_fin f then MDone [EMsg mt (zlen acc') acc' eNone] else MMore acc' true mt []).
Proof.
  intros Hc Hfit Hmax Hpl Hcont mt acc'.
  unfold msg_frame. change (negb (eNone =? eNone)) with false. cbv iota. rewrite Hc. fold mt.
  assert (Hcp : copy_into buflen acc (payload_of f) = acc') by (unfold copy_into, acc'; rewrite ztake_all by lia; reflexivity).
  rewrite Hcp.
  assert (Hl : zlen acc' = zlen acc + zlen (payload_of f)) by (unfold acc'; apply zlen_app).
  replace ((zlen acc' >? w_max s) || negb (zlen acc' - zlen acc =? payload_length f)) with false by lia.
  rewrite Hcont. destruct cont, (is_fin f); reflexivity.
Qed.

(* what is left of one conforming message; cont: its first data frame has gone by *)
Fixpoint frag_seq (cont : bool) (fs : list (list Z)) : bool :=
  match fs with
  | [] => false
  | f :: r =>
      if Opcode_IsControl (opcode_of f) then ctl_conf f && frag_seq cont r
      else data_conf f && Bool.eqb (Opcode_IsContinuation (opcode_of f)) cont &&
           (if is_fin f then match r with [] => true | _ => false end else frag_seq true r)
  end.

Fixpoint msg_payload (fs : list (list Z)) : list Z :=
  match fs with
  | [] => []
  | f :: r => if Opcode_IsControl (opcode_of f) then msg_payload r else payload_of f ++ msg_payload r
  end.

Fixpoint msg_ctl (fs : list (list Z)) : list wev :=
  match fs with
  | [] => []
  | f :: r => if Opcode_IsControl (opcode_of f) then ECtl (opcode_of f) (payload_of f) :: msg_ctl r else msg_ctl r
  end.

Fixpoint msg_type (mtype : Z) (fs : list (list Z)) : Z :=
  match fs with
  | [] => mtype
  | f :: r => if Opcode_IsControl (opcode_of f) then msg_type mtype r
              else msg_type (if mtype =? ws_TypeNone then opcode_of f else mtype) r
  end.

Lemma msg_ctl_app a b : msg_ctl (a ++ b) = msg_ctl a ++ msg_ctl b.
Proof.
  induction a as [|f a IH]; [reflexivity|]. cbn [app msg_ctl]. destruct (Opcode_IsControl (opcode_of f)); rewrite IH; reflexivity.
Qed.

Lemma msg_payload_app a b : msg_payload (a ++ b) = msg_payload a ++ msg_payload b.
Proof.
  induction a as [|f a IH]; [reflexivity|]. cbn [app msg_payload]. destruct (Opcode_IsControl (opcode_of f)); rewrite IH;
    [reflexivity|apply app_assoc].
Qed.

Lemma msg_type_app a : forall mtype b, msg_type mtype (a ++ b) = msg_type (msg_type mtype a) b.
Proof.
  induction a as [|f a IH]; intros mtype b; [reflexivity|]. cbn [app msg_type].
  destruct (Opcode_IsControl (opcode_of f)); apply IH.
Qed.

Lemma frag_seq_head cont f fs : frag_seq cont (f :: fs) = true -> frame_conf f = true.
Proof.
  unfold frame_conf. cbn [frag_seq]. destruct (Opcode_IsControl (opcode_of f)); rewrite !andb_true_iff; tauto.
Qed.

Lemma msg_payload_fits acc fs1 fs2 b : zlen acc + zlen (msg_payload (fs1 ++ fs2)) <= b ->
  zlen acc + zlen (msg_payload fs1) <= b /\ zlen (acc ++ msg_payload fs1) + zlen (msg_payload fs2) <= b.
Proof. rewrite msg_payload_app, !zlen_app. pose proof (zlen_nonneg (msg_payload fs2)). lia. Qed.

Lemma pseq_head max f fs T future R : pseq max (f :: fs) (T ++ future) R ->
  (parse1 max T = PNeedMore /\ future <> []) \/
  (exists rest, parse1 max T = PFrame f rest /\ pseq max fs (rest ++ future) R).
Proof.
  intros Hps. inversion Hps as [|? ? ? rest1 ? Hp1 Hps1]; subst.
  destruct (parse1 max T) as [| |f' r'] eqn:Ep.
  - left. split; [reflexivity|]. intros ->. rewrite app_nil_r in Hp1. congruence.
  - rewrite (parse1_toobig_app _ _ future Ep) in Hp1. discriminate.
  - rewrite (parse1_app _ _ future _ _ Ep) in Hp1. inversion Hp1; subst. right. eauto.
Qed.
Arguments pseq_head {max f fs T future R}.

Lemma owed_not_pending max cont fs T R : pseq max fs T R -> frag_seq cont fs = true -> parse1 max T <> PNeedMore.
Proof. intros Hps Hfr. destruct Hps; [discriminate Hfr|congruence]. Qed.
Arguments owed_not_pending {max cont fs T R}.

Definition npend (evs : list wev) : list wev := filter (fun e => match e with EPending => false | _ => true end) evs.

Lemma npend_app a b : npend (a ++ b) = npend a ++ npend b.
Proof. apply filter_app. Qed.

Lemma npend_ctl fs : npend (msg_ctl fs) = msg_ctl fs.
Proof.
  induction fs as [|f fs IH]; [reflexivity|]. cbn [msg_ctl]. destruct (Opcode_IsControl (opcode_of f)); [|exact IH].
  cbn. unfold npend in IH. rewrite IH. reflexivity.
Qed.

(* The outcome of the reassembly of the frames fs still owed, [future] being those of their bytes that are not in the
   stream yet: finished, or parked behind the frames fs1 that are complete now, having reported [pend] (EPending from the
   API call, nothing from the continuation). *)
Definition reassembled (s : ws) (buflen : Z) (acc : list Z) (mtype : Z) (fs : list (list Z)) (future R : list Z)
    (pend : list wev) (s' : ws) (evs : list wev) : Prop :=
  St s' /\ w_state s' = w_state s /\ w_max s' = w_max s /\ c_max (w_codec s') = c_max (w_codec s) /\
  ((evs = msg_ctl fs ++ [EMsg (msg_type mtype fs) (zlen (acc ++ msg_payload fs)) (acc ++ msg_payload fs) eNone] /\
    sstream s' ++ future = R /\ w_rpend s' = w_rpend s) \/
   (exists fs1 fs2 cont1, fs = fs1 ++ fs2 /\ evs = msg_ctl fs1 ++ pend /\
      w_rpend s' = Some (KMsg buflen (acc ++ msg_payload fs1) cont1 (msg_type mtype fs1)) /\
      pseq (c_max (w_codec s')) fs2 (sstream s' ++ future) R /\ frag_seq cont1 fs2 = true /\
      parse1 (c_max (w_codec s')) (sstream s') = PNeedMore)).

(* the two outcomes of [reassembled], named; [reassembled_case] passes from one to the other *)
Inductive msg_end (s : ws) (buflen : Z) (acc : list Z) (mtype : Z) (fs : list (list Z)) (future R : list Z)
    (pend : list wev) (s' : ws) (evs : list wev) : Prop :=
| msg_finished :
    evs = msg_ctl fs ++ [EMsg (msg_type mtype fs) (zlen (acc ++ msg_payload fs)) (acc ++ msg_payload fs) eNone] ->
    sstream s' ++ future = R -> w_rpend s' = w_rpend s ->
    msg_end s buflen acc mtype fs future R pend s' evs
| msg_parked fs1 fs2 cont1 :
    fs = fs1 ++ fs2 -> evs = msg_ctl fs1 ++ pend ->
    w_rpend s' = Some (KMsg buflen (acc ++ msg_payload fs1) cont1 (msg_type mtype fs1)) ->
    pseq (c_max (w_codec s')) fs2 (sstream s' ++ future) R -> frag_seq cont1 fs2 = true ->
    parse1 (c_max (w_codec s')) (sstream s') = PNeedMore ->
    msg_end s buflen acc mtype fs future R pend s' evs.
Arguments msg_finished {s buflen acc mtype fs future R pend s' evs}.
Arguments msg_parked {s buflen acc mtype fs future R pend s' evs} fs1 fs2 cont1.

Lemma reassembled_case s buflen acc mtype fs future R pend s' evs :
  reassembled s buflen acc mtype fs future R pend s' evs ->
  St s' /\ w_state s' = w_state s /\ w_max s' = w_max s /\ c_max (w_codec s') = c_max (w_codec s) /\
  msg_end s buflen acc mtype fs future R pend s' evs.
Proof.
  intros (HSt' & Hst' & Hmx' & Hcm' & [(Hevs & HR & Hrp')|(fs1 & fs2 & cont1 & Hfs & Hevs & Hrp' & Hps2 & Hfr2 & Hnm)]);
    repeat (split; [assumption|]).
  - exact (msg_finished Hevs HR Hrp').
  - exact (msg_parked fs1 fs2 cont1 Hfs Hevs Hrp' Hps2 Hfr2 Hnm).
Qed.
Arguments reassembled_case {s buflen acc mtype fs future R pend s' evs}.

(* the head's part is stated with the list [f]: f :: fs being [f] ++ fs, the _app equations join it to the tail's *)
Lemma reassembled_cons s s1 buflen acc mtype f fs future R pend s' evs :
  step_ok s s1 (sstream s1) ->
  reassembled s1 buflen (acc ++ msg_payload [f]) (msg_type mtype [f]) fs future R pend s' evs ->
  reassembled s buflen acc mtype (f :: fs) future R pend s' (msg_ctl [f] ++ evs).
Proof.
  intros (_ & _ & Hst & Hmx & Hcm & Hrp) Hr. destruct (reassembled_case Hr) as (HSt' & Hst' & Hmx' & Hcm' & Hend).
  split; [exact HSt'|]. split; [congruence|]. split; [congruence|]. split; [congruence|].
  change (f :: fs) with ([f] ++ fs).
  destruct Hend as [-> HR Hrp'|fs1 fs2 cont1 -> -> Hrp' Hps2 Hfr2 Hnm].
  - left. rewrite msg_ctl_app, msg_payload_app, msg_type_app, !app_assoc.
    split; [reflexivity|]. split; [exact HR|congruence].
  - right. exists ([f] ++ fs1), fs2, cont1. rewrite msg_ctl_app, msg_payload_app, msg_type_app, !app_assoc. repeat split; auto.
Qed.
Arguments reassembled_cons {s s1 buflen acc mtype f fs future R pend s' evs}.

Lemma reassembled_npend s buflen acc mtype fs future R s' evs :
  reassembled s buflen acc mtype fs future R [EPending] s' evs -> reassembled s buflen acc mtype fs future R [] s' (npend evs).
Proof.
  intros Hr. destruct (reassembled_case Hr) as (HSt' & Hst' & Hmx' & Hcm' & Hend). repeat (split; [assumption|]).
  destruct Hend as [-> HR Hrp'|fs1 fs2 cont1 Hfs -> Hrp' Hps2 Hfr2 Hnm]; rewrite npend_app, npend_ctl.
  - left. split; [reflexivity|]. split; assumption.
  - right. exists fs1, fs2, cont1. repeat split; auto.
Qed.

(* step_goes_on carries, for s1 and fs, the premises that msg_step asks of s and f :: fs *)
Inductive msg_stepped (async : bool) (s s1 : ws) (r : fres) (buflen : Z) (acc : list Z) (cont : bool) (mtype : Z)
    (f : list Z) (fs : list (list Z)) (future R : list Z) (pend : list wev) : Prop :=
| step_parked :
    r = FPending ->
    reassembled s buflen acc mtype (f :: fs) future R pend (set_rpend s1 (Some (KMsg buflen acc cont mtype))) pend ->
    msg_stepped async s s1 r buflen acc cont mtype f fs future R pend
| step_finished evs :
    r = FGot f eNone ->
    msg_frame async s1 buflen acc cont mtype f eNone = (s1, MDone evs) ->
    reassembled s buflen acc mtype (f :: fs) future R pend s1 evs ->
    msg_stepped async s s1 r buflen acc cont mtype f fs future R pend
| step_goes_on cont' :
    r = FGot f eNone ->
    step_ok s s1 (sstream s1) -> zlen (sstream s1) + 2 <= zlen (sstream s) ->
    msg_frame async s1 buflen acc cont mtype f eNone =
      (s1, MMore (acc ++ msg_payload [f]) cont' (msg_type mtype [f]) (msg_ctl [f])) ->
    pseq (c_max (w_codec s1)) fs (sstream s1 ++ future) R -> frag_seq cont' fs = true ->
    zlen (acc ++ msg_payload [f]) + zlen (msg_payload fs) <= buflen ->
    zlen (acc ++ msg_payload [f]) + zlen (msg_payload fs) <= w_max s1 ->
    msg_stepped async s s1 r buflen acc cont mtype f fs future R pend.
Arguments step_parked {async s s1 r buflen acc cont mtype f fs future R pend}.
Arguments step_finished {async s s1 r buflen acc cont mtype f fs future R pend evs}.
Arguments step_goes_on {async s s1 r buflen acc cont mtype f fs future R pend} cont'.

(* the reader is a premise (frame_read): next_frame_gen in msg_loop, read_and_handle in the continuation *)
Lemma msg_step async s s1 r buflen acc cont mtype f fs future R pend :
  St s -> pseq (c_max (w_codec s)) (f :: fs) (sstream s ++ future) R -> frag_seq cont (f :: fs) = true ->
  (async = false -> future = []) ->
  zlen acc + zlen (msg_payload (f :: fs)) <= buflen -> zlen acc + zlen (msg_payload (f :: fs)) <= w_max s ->
  frame_read async s s1 r ->
  msg_stepped async s s1 r buflen acc cont mtype f fs future R pend.
Proof.
  intros HSt Hps Hfr Hfut Hb1 Hb2 Hd.
  destruct (pseq_head Hps) as [[Ep Hne]|(rest & Ep & Hps1)].
  - destruct async; [|elim Hne; apply Hfut; reflexivity].
    destruct (frame_read_pending Hd Ep) as (-> & HSt1 & Hss1 & Hst1 & Hmx1 & Hcm1 & Hrp1).
    apply (step_parked eq_refl).
    split; [apply St_set_rpend; exact HSt1|]. split; [exact Hst1|]. split; [exact Hmx1|]. split; [exact Hcm1|].
    rewrite <- Hcm1, <- Hss1 in Hps, Ep.
    right. exists [], (f :: fs), cont. cbn [app msg_ctl msg_payload msg_type]. rewrite app_nil_r. tauto.
  - destruct (frame_read_conf Hd Ep (frag_seq_head _ _ _ Hfr)) as [-> Hok].
    destruct (St_bytes HSt) as [Hbs Hmx]. pose proof (parse1_shrinks Hbs Hmx Ep) as Hshr.
    pose proof Hok as (HSt1 & <- & Hst1 & Hmx1 & Hcm1 & Hrp1).
    rewrite <- Hmx1 in Hb2. rewrite <- Hcm1 in Hps1.
    destruct (msg_payload_fits acc [f] fs _ Hb1) as [Hf1 Hb1']. destruct (msg_payload_fits acc [f] fs _ Hb2) as [Hf2 Hb2'].
    cbn [frag_seq] in Hfr.
    destruct (Opcode_IsControl (opcode_of f)) eqn:Ec; rewrite !andb_true_iff in Hfr.
    + refine (step_goes_on cont eq_refl Hok Hshr _ Hps1 (proj2 Hfr) Hb1' Hb2').
      cbn [msg_payload msg_ctl msg_type]. rewrite Ec, app_nil_r. apply msg_frame_ctl. exact Ec.
    + destruct Hfr as [[Hdc Hcont] Hfin]. apply Bool.eqb_prop in Hcont.
      unfold data_conf in Hdc. rewrite !andb_true_iff in Hdc. destruct Hdc as [_ Hpl]. apply Z.eqb_eq in Hpl.
      assert (Hp1 : msg_payload [f] = payload_of f) by (cbn [msg_payload]; rewrite Ec; apply app_nil_r).
      rewrite Hp1 in Hf1, Hf2.
      pose proof (msg_frame_data async s1 buflen acc cont mtype f Ec Hf1 Hf2 Hpl Hcont) as Em. cbv zeta in Em.
      destruct (is_fin f).
      * (* FIN: frag_seq allows no frame behind f, so fs = [] and, by pseq_nil, the stream behind f is R *)
        destruct fs as [|f' fs']; [|discriminate Hfin]. inversion Hps1; subst.
        apply (step_finished eq_refl Em).
        unfold reassembled. cbn [msg_ctl msg_payload msg_type]. rewrite Ec, !app_nil_r. tauto.
      * refine (step_goes_on true eq_refl Hok Hshr _ Hps1 Hfin Hb1' Hb2').
        cbn [msg_ctl msg_type]. rewrite Hp1, Ec. exact Em.
Qed.
Arguments msg_step {async s s1 r buflen acc cont} mtype {f fs future R} pend.

(* either fuel measure will do: one unit per frame owed, or per two bytes present (parse1_shrinks) *)
Lemma msg_loop_gen fs : forall fuel async s buflen acc cont mtype future R s' evs,
  St s -> pseq (c_max (w_codec s)) fs (sstream s ++ future) R -> frag_seq cont fs = true ->
  (async = false -> future = []) ->
  (length fs <= fuel)%nat \/ zlen (sstream s) < 2 * Z.of_nat fuel ->
  zlen acc + zlen (msg_payload fs) <= buflen -> zlen acc + zlen (msg_payload fs) <= w_max s ->
  msg_loop fuel async s buflen acc cont mtype = (s', evs) ->
  reassembled s buflen acc mtype fs future R [EPending] s' evs.
Proof.
  induction fs as [|f fs IH]; intros fuel async s buflen acc cont mtype future R s' evs HSt Hps Hfr Hfut Hfu Hb1 Hb2 H;
    [discriminate|].
  destruct fuel as [|fu]; [pose proof (zlen_nonneg (sstream s)); cbn [length] in Hfu; lia|].
  cbn [msg_loop] in H. destruct (next_frame_gen async s) as [s1 r] eqn:En.
  destruct (msg_step mtype [EPending] HSt Hps Hfr Hfut Hb1 Hb2 (next_frame_data HSt En))
    as [-> Hres|evs0 -> Em Hres|cont' -> Hok Hshr Em Hps1 Hfr' Hb1' Hb2'].
  - inversion H; subst s' evs. exact Hres.
  - rewrite Em in H. inversion H; subst s' evs. exact Hres.
  - rewrite Em in H. destruct (msg_loop fu async s1 buflen _ cont' _) as [s3 evs'] eqn:El.
    inversion H; subst s' evs; clear H. pose proof (step_ok_St Hok) as HSt1.
    apply (reassembled_cons Hok). eapply (IH fu); try eassumption. cbn [length] in Hfu. lia.
Qed.
Arguments msg_loop_gen {fs fuel async s buflen acc cont mtype future R s' evs}.

Lemma msg_loop_present fs fuel async s buflen acc cont mtype rest s' evs :
  St s -> pseq (c_max (w_codec s)) fs (sstream s) rest -> frag_seq cont fs = true ->
  (length fs <= fuel)%nat \/ zlen (sstream s) < 2 * Z.of_nat fuel ->
  zlen acc + zlen (msg_payload fs) <= buflen -> zlen acc + zlen (msg_payload fs) <= w_max s ->
  msg_loop fuel async s buflen acc cont mtype = (s', evs) ->
  evs = msg_ctl fs ++ [EMsg (msg_type mtype fs) (zlen (acc ++ msg_payload fs)) (acc ++ msg_payload fs) eNone] /\
  St s' /\ sstream s' = rest /\ w_state s' = w_state s /\ w_max s' = w_max s /\ w_rpend s' = w_rpend s.
Proof.
  intros HSt Hps Hfr Hfu Hb1 Hb2 H. rewrite <- (app_nil_r (sstream s)) in Hps.
  destruct (reassembled_case (msg_loop_gen HSt Hps Hfr (fun _ => eq_refl) Hfu Hb1 Hb2 H))
    as (HSt' & Hst' & Hmx' & _ & [Hevs HR Hrp'|fs1 fs2 cont1 _ _ _ Hps2 Hfr2 Hnm]).
  - rewrite app_nil_r in HR. tauto.
  - rewrite app_nil_r in Hps2. elim (owed_not_pending Hps2 Hfr2 Hnm).
Qed.
Arguments msg_loop_present {fs fuel async s buflen acc cont mtype rest s' evs}.

Lemma msg_loop_async fs : forall fuel s buflen acc cont mtype future R s' evs,
  St s -> pseq (c_max (w_codec s)) fs (sstream s ++ future) R -> frag_seq cont fs = true ->
  zlen (sstream s) < 2 * Z.of_nat fuel ->
  zlen acc + zlen (msg_payload fs) <= buflen -> zlen acc + zlen (msg_payload fs) <= w_max s ->
  msg_loop fuel true s buflen acc cont mtype = (s', evs) ->
  St s' /\ w_state s' = w_state s /\ w_max s' = w_max s /\ c_max (w_codec s') = c_max (w_codec s) /\
  ((evs = msg_ctl fs ++ [EMsg (msg_type mtype fs) (zlen (acc ++ msg_payload fs)) (acc ++ msg_payload fs) eNone] /\
    sstream s' ++ future = R /\ w_rpend s' = w_rpend s) \/
   (exists fs1 fs2 cont1, fs = fs1 ++ fs2 /\ evs = msg_ctl fs1 ++ [EPending] /\
      w_rpend s' = Some (KMsg buflen (acc ++ msg_payload fs1) cont1 (msg_type mtype fs1)) /\
      pseq (c_max (w_codec s')) fs2 (sstream s' ++ future) R /\ frag_seq cont1 fs2 = true /\
      parse1 (c_max (w_codec s')) (sstream s') = PNeedMore)).
Proof.
  (* the conclusion is [reassembled s buflen acc mtype fs future R [EPending] s' evs] unfolded *)
  intros fuel s buflen acc cont mtype future R s' evs HSt Hps Hfr Hfu Hb1 Hb2 H.
  exact (msg_loop_gen (async := true) HSt Hps Hfr ltac:(discriminate) (or_intror Hfu) Hb1 Hb2 H).
Qed.
Arguments msg_loop_async {fs fuel s buflen acc cont mtype future R s' evs}.

Lemma fold_ev_bytes q : forall a, (a + length (wflat q) <= fold_left (fun acc e => (acc + ev_bytes e)%nat) q a)%nat.
Proof.
  induction q as [|e q IH]; intros a; [cbn; lia|]. cbn [fold_left]. specialize (IH (a + ev_bytes e)%nat).
  unfold wflat in *. cbn [map concat]. rewrite app_length. destruct e; cbn [ev_bytes length] in *; lia.
Qed.

Lemma mfuel_enough s : zlen (sstream s) < 2 * Z.of_nat (mfuel s).
Proof.
  unfold sstream, wstream, mfuel, unread. rewrite zlen_app.
  pose proof (fold_ev_bytes (tr_in (w_tr s)) 0%nat) as Hq.
  pose proof (zlen_zdrop_le (if c_reset (w_codec s) then c_flen (w_codec s) else 0)
                (t_read (c_src (w_codec s)) ++ t_pend (c_src (w_codec s)))) as Hd.
  rewrite zlen_app in Hd. unfold zlen in *. lia.
Qed.

Lemma resume_async fs s buflen acc cont mtype future R s' evs :
  St s -> pseq (c_max (w_codec s)) fs (sstream s ++ future) R -> frag_seq cont fs = true ->
  zlen acc + zlen (msg_payload fs) <= buflen -> zlen acc + zlen (msg_payload fs) <= w_max s ->
  resume s (KMsg buflen acc cont mtype) = (s', evs) ->
  St s' /\ w_state s' = w_state s /\ w_max s' = w_max s /\ c_max (w_codec s') = c_max (w_codec s) /\
  ((evs = msg_ctl fs ++ [EMsg (msg_type mtype fs) (zlen (acc ++ msg_payload fs)) (acc ++ msg_payload fs) eNone] /\
    sstream s' ++ future = R /\ w_rpend s' = None) \/
   (exists fs1 fs2 cont1, fs = fs1 ++ fs2 /\ evs = msg_ctl fs1 /\
      w_rpend s' = Some (KMsg buflen (acc ++ msg_payload fs1) cont1 (msg_type mtype fs1)) /\
      pseq (c_max (w_codec s')) fs2 (sstream s' ++ future) R /\ frag_seq cont1 fs2 = true /\
      parse1 (c_max (w_codec s')) (sstream s') = PNeedMore)).
Proof.
  intros HSt Hps Hfr Hb1 Hb2 H.
  assert (Hr : reassembled (set_rpend s None) buflen acc mtype fs future R [] s' evs).
  { unfold resume in H. apply (St_set_rpend s None) in HSt.
    destruct (read_and_handle true (set_rpend s None)) as [s1 r] eqn:Er. destruct fs as [|f fs]; [discriminate|].
    destruct (msg_step (async := true) mtype [] HSt Hps Hfr ltac:(discriminate) Hb1 Hb2 (read_and_handle_data HSt Er))
      as [-> Hres|evs0 -> Em Hres|cont' -> Hok _ Em Hps1 Hfr' Hb1' Hb2'].
    - inversion H; subst s' evs. exact Hres.
    - rewrite Em in H. inversion H; subst s' evs. exact Hres.
    - (* the continuation does not report the EPending of msg_loop *)
      rewrite Em in H. destruct (msg_loop (mfuel s1) true s1 buflen _ cont' _) as [s3 evs'] eqn:El.
      inversion H; subst s' evs; clear H. apply (reassembled_cons Hok), reassembled_npend.
      exact (msg_loop_async (step_ok_St Hok) Hps1 Hfr' (mfuel_enough s1) Hb1' Hb2' El). }
  (* Hr converts to the goal about s: w_rpend (set_rpend s None) is None, the other fields are those of s *)
  destruct (reassembled_case Hr) as (HSt' & Hst' & Hmx' & Hcm' & Hend). repeat (split; [assumption|]).
  destruct Hend as [Hevs HR Hrp'|fs1 fs2 cont1 Hfs Hevs Hrp' Hps2 Hfr2 Hnm].
  - left. exact (conj Hevs (conj HR Hrp')).
  - rewrite app_nil_r in Hevs. right. exists fs1, fs2, cont1. repeat split; auto.
Qed.
Arguments resume_async {fs s buflen acc cont mtype future R s' evs}.

Fixpoint wsrun_ev (s : ws) (ops : list wsop) : ws * list wev :=
  match ops with
  | [] => (s, [])
  | o :: r => let '(s1, e1) := wsstep s o in let '(s2, e2) := wsrun_ev s1 r in (s2, e1 ++ e2)
  end.

Definition arrivals (chunks : list (list Z)) : list wsop := map (fun w => WIn (InData w)) chunks.

Definition pushed (s : ws) (w : list Z) : ws := set_io s (w_codec s) (tr_push (w_tr s) (InData w)).

Lemma St_pushed s w : St s -> bytes w ->
  St (pushed s w) /\ sstream (pushed s w) = sstream s ++ w /\ w_rpend (pushed s w) = w_rpend s /\
  w_state (pushed s w) = w_state s /\ w_max (pushed s w) = w_max s /\ w_codec (pushed s w) = w_codec s.
Proof.
  intros (Hw & Hc & Hb & Ht & Ha & Hcr) Hbw. split; [|split].
  - unfold St, pushed. cbn. split.
    + eapply same_out_wire; [|exact Hw]. repeat split; reflexivity.
    + split; [exact Hc|]. split; [exact Hb|]. split.
      * apply Forall_app. split; [exact Ht|]. constructor; [exact Hbw|constructor].
      * split; [|exact Hcr]. unfold all_data in *. rewrite forallb_app, Ha. reflexivity.
  - unfold sstream, wstream, pushed. cbn. unfold wflat. rewrite map_app, concat_app. cbn. rewrite app_nil_r, app_assoc. reflexivity.
  - repeat split; reflexivity.
Qed.

(* a run in two parts: from s to s1 with the events pre, then from s1 with a conclusion of the same form *)
Lemma run_app s1 (pre evs X Y : list wev) s s' R : w_state s1 = w_state s ->
  evs = X /\ St s' /\ sstream s' = R /\ w_rpend s' = None /\ w_state s' = w_state s1 -> pre ++ X = Y ->
  pre ++ evs = Y /\ St s' /\ sstream s' = R /\ w_rpend s' = None /\ w_state s' = w_state s.
Proof. intros <- (-> & H) <-. exact (conj eq_refl H). Qed.
Arguments run_app s1 {pre evs X Y s s' R}.

Lemma run_idle chunks : forall s s' evs,
  St s -> w_rpend s = None -> Forall bytes chunks -> wsrun_ev s (arrivals chunks) = (s', evs) ->
  evs = [] /\ St s' /\ sstream s' = sstream s ++ concat chunks /\ w_rpend s' = None /\ w_state s' = w_state s.
Proof.
  induction chunks as [|w chunks IH]; intros s s' evs HSt Hrp Hb H; cbn [arrivals map wsrun_ev concat] in H |- *.
  - inversion H; subst. rewrite app_nil_r. tauto.
  - inversion Hb as [|? ? Hbw Hbc]; subst. cbn [wsstep] in H. fold (pushed s w) in H.
    destruct (St_pushed s w HSt Hbw) as (HSt1 & Hss1 & Hrp1 & Hst1 & _). rewrite Hrp1, Hrp in H.
    fold (arrivals chunks) in H. destruct (wsrun_ev (pushed s w) (arrivals chunks)) as [s2 e2] eqn:Er.
    inversion H; subst s' evs; clear H. rewrite app_assoc, <- Hss1.
    apply (run_app (pre := []) (pushed s w) Hst1 (IH _ _ _ HSt1 (eq_trans Hrp1 Hrp) Hbc Er)). reflexivity.
Qed.
Arguments run_idle {chunks s s' evs}.

Lemma run_parked chunks : forall s buflen acc cont mtype fs R s' evs,
  St s -> w_rpend s = Some (KMsg buflen acc cont mtype) -> Forall bytes chunks ->
  pseq (c_max (w_codec s)) fs (sstream s ++ concat chunks) R -> frag_seq cont fs = true ->
  parse1 (c_max (w_codec s)) (sstream s) = PNeedMore ->
  zlen acc + zlen (msg_payload fs) <= buflen -> zlen acc + zlen (msg_payload fs) <= w_max s ->
  wsrun_ev s (arrivals chunks) = (s', evs) ->
  evs = msg_ctl fs ++ [EMsg (msg_type mtype fs) (zlen (acc ++ msg_payload fs)) (acc ++ msg_payload fs) eNone] /\
  St s' /\ sstream s' = R /\ w_rpend s' = None /\ w_state s' = w_state s.
Proof.
  induction chunks as [|w chunks IH]; intros s buflen acc cont mtype fs R s' evs HSt Hrp Hb Hps Hfr Hnm Hb1 Hb2 H;
    cbn [arrivals map wsrun_ev concat] in H, Hps.
  - rewrite app_nil_r in Hps. elim (owed_not_pending Hps Hfr Hnm).
  - inversion Hb as [|? ? Hbw Hbc]; subst. cbn [wsstep] in H. fold (pushed s w) in H.
    destruct (St_pushed s w HSt Hbw) as (HSt1 & Hss1 & Hrp1 & Hst1 & Hmx1 & Hc1). rewrite Hrp1, Hrp in H.
    fold (arrivals chunks) in H.
    destruct (resume (pushed s w) (KMsg buflen acc cont mtype)) as [s2 e1] eqn:Ers.
    destruct (wsrun_ev s2 (arrivals chunks)) as [s3 e2] eqn:Er. inversion H; subst s' evs; clear H.
    rewrite app_assoc, <- Hss1, <- Hc1 in Hps. rewrite <- Hmx1 in Hb2.
    destruct (resume_async HSt1 Hps Hfr Hb1 Hb2 Ers) as (HSt2 & Hst2 & Hmx2 & _ & Hend). rewrite Hst1 in Hst2.
    destruct Hend as [(-> & HR & Hrp2)|(fs1 & fs2 & cont1 & -> & -> & Hrp2 & Hps2 & Hfr2 & Hnm2)].
    + rewrite <- HR. apply (run_app s2 Hst2 (run_idle HSt2 Hrp2 Hbc Er)). apply app_nil_r.
    + rewrite <- Hmx2 in Hb2. apply msg_payload_fits in Hb1 as [_ Hb1'], Hb2 as [_ Hb2'].
      eapply (run_app s2 Hst2); [eapply IH; eassumption|].
      rewrite msg_ctl_app, msg_payload_app, msg_type_app, <- !app_assoc. reflexivity.
Qed.
Arguments run_parked {chunks s buflen acc cont mtype fs R s' evs}.

(* C06_async_message_any_segmentation *)
Theorem async_message_any_segmentation chunks s buflen fs R s' evs :
  St s -> w_rpend s = None -> Forall bytes chunks ->
  pseq (c_max (w_codec s)) fs (sstream s ++ concat chunks) R -> frag_seq false fs = true ->
  zlen (msg_payload fs) <= buflen -> zlen (msg_payload fs) <= w_max s ->
  wsrun_ev s (WAsyncNextMessage buflen :: arrivals chunks) = (s', evs) ->
  npend evs = msg_ctl fs ++ [EMsg (msg_type ws_TypeNone fs) (zlen (msg_payload fs)) (msg_payload fs) eNone] /\
  St s' /\ sstream s' = R /\ w_rpend s' = None /\ w_state s' = w_state s.
Proof.
  intros HSt Hrp Hb Hps Hfr Hb1 Hb2 H. cbn [wsrun_ev wsstep] in H.
  destruct (msg_loop (mfuel s) true s buflen [] false ws_TypeNone) as [s1 e1] eqn:El.
  destruct (wsrun_ev s1 (arrivals chunks)) as [s2 e2] eqn:Er. inversion H; subst s' evs; clear H.
  rewrite npend_app.
  destruct (reassembled_case (msg_loop_async (acc := []) HSt Hps Hfr (mfuel_enough s) Hb1 Hb2 El))
    as (HSt1 & Hst1 & Hmx1 & _ & [-> HR Hrp1|fs1 fs2 cont1 -> -> Hrp1 Hps2 Hfr2 Hnm2]).
  - destruct (run_idle HSt1 (eq_trans Hrp1 Hrp) Hb Er) as [He2 Hrest]. apply (f_equal npend) in He2. rewrite <- HR.
    apply (run_app s1 Hst1 (conj He2 Hrest)). rewrite npend_app, npend_ctl. apply app_nil_r.
  - rewrite <- Hmx1 in Hb2. apply (msg_payload_fits []) in Hb1 as [_ Hb1'], Hb2 as [_ Hb2'].
    destruct (run_parked HSt1 Hrp1 Hb Hps2 Hfr2 Hnm2 Hb1' Hb2' Er) as [He2 Hrest]. apply (f_equal npend) in He2.
    apply (run_app s1 Hst1 (conj He2 Hrest)).
    rewrite !npend_app, !npend_ctl, msg_ctl_app, msg_payload_app, msg_type_app. cbn [npend filter app].
    rewrite app_nil_r, <- app_assoc. reflexivity.
Qed.

(* C06_whole_message *)
Theorem message_any_segmentation (async : bool) s buflen fs R s' evs :
  St s -> pseq (c_max (w_codec s)) fs (sstream s) R -> frag_seq false fs = true ->
  zlen (msg_payload fs) <= buflen -> zlen (msg_payload fs) <= w_max s ->
  wsstep s (if async then WAsyncNextMessage buflen else WNextMessage buflen) = (s', evs) ->
  evs = msg_ctl fs ++ [EMsg (msg_type ws_TypeNone fs) (zlen (msg_payload fs)) (msg_payload fs) eNone] /\
  St s' /\ sstream s' = R /\ w_state s' = w_state s.
Proof.
  intros HSt Hps Hfr Hb1 Hb2 H.
  assert (H' : msg_loop (mfuel s) async s buflen [] false ws_TypeNone = (s', evs)) by (destruct async; exact H).
  destruct (msg_loop_present (acc := []) HSt Hps Hfr (or_intror (mfuel_enough s)) Hb1 Hb2 H')
    as (Hevs & HSt' & HR & Hst' & _).
  cbn [app] in Hevs. tauto.
Qed.

Lemma St_init max keys : 0 <= max < WsFrame.two63 -> St (ws_init max keys) /\ w_rpend (ws_init max keys) = None /\
  sstream (ws_init max keys) = [].
Proof.
  intros Hm. split; [|split; reflexivity]. unfold St. split; [apply init_wire|]. cbn.
  split; [split; [discriminate|exact Hm]|]. split; [constructor|]. split; [constructor|]. split; reflexivity.
Qed.

(* What follows is used by no proof: ws_read_loop_data, read_and_handle_data, next_frame_data and msg_loop_present in
   one case of the parse, with frame_read and step_ok written out; frag_seq_nonempty; and msg_loop_whole, which is
   msg_loop_present under the first of its two fuel measures. *)
Lemma ws_read_loop_complete fuel : forall c t async c' t' r f rest,
  cinv c -> bytes (unread c) -> wevs_ok (tr_in t) -> all_data (tr_in t) -> (length (tr_in t) < fuel)%nat ->
  parse1 (c_max c) (wstream c t) = PFrame f rest ->
  ws_read_loop fuel c t async = (c', t', r) ->
  r = RdFrame f /\ wstream c' t' = rest /\ all_data (tr_in t').
Proof.
  intros c t async c' t' r f rest Hc Hb Ht Ha Hf Hp H.
  destruct (ws_read_loop_data Hc Hb Ht Ha Hf H) as [Ha' Hr]. rewrite Hp in Hr. tauto.
Qed.

Lemma ws_read_loop_pending fuel : forall c t c' t' r,
  cinv c -> bytes (unread c) -> wevs_ok (tr_in t) -> all_data (tr_in t) -> (length (tr_in t) < fuel)%nat ->
  parse1 (c_max c) (wstream c t) = PNeedMore ->
  ws_read_loop fuel c t true = (c', t', r) -> r = RdPending /\ all_data (tr_in t').
Proof.
  intros c t c' t' r Hc Hb Ht Ha Hf Hp H.
  destruct (ws_read_loop_data Hc Hb Ht Ha Hf H) as [Ha' Hr]. rewrite Hp in Hr. tauto.
Qed.

Lemma read_and_handle_conf async s f rest s1 r :
  St s -> parse1 (c_max (w_codec s)) (sstream s) = PFrame f rest -> frame_conf f = true ->
  read_and_handle async s = (s1, r) ->
  r = FGot f eNone /\ St s1 /\ sstream s1 = rest /\ w_state s1 = w_state s /\ w_max s1 = w_max s /\
  c_max (w_codec s1) = c_max (w_codec s) /\ w_rpend s1 = w_rpend s.
Proof. intros HSt Hp Hconf H. exact (frame_read_conf (read_and_handle_data HSt H) Hp Hconf). Qed.

Lemma next_frame_conf async s f rest s1 r :
  St s -> parse1 (c_max (w_codec s)) (sstream s) = PFrame f rest -> frame_conf f = true ->
  next_frame_gen async s = (s1, r) ->
  r = FGot f eNone /\ St s1 /\ sstream s1 = rest /\ w_state s1 = w_state s /\ w_max s1 = w_max s /\
  c_max (w_codec s1) = c_max (w_codec s) /\ w_rpend s1 = w_rpend s.
Proof. intros HSt Hp Hconf H. exact (frame_read_conf (next_frame_data HSt H) Hp Hconf). Qed.

Lemma read_and_handle_pending s s1 r :
  St s -> parse1 (c_max (w_codec s)) (sstream s) = PNeedMore ->
  read_and_handle true s = (s1, r) ->
  r = FPending /\ St s1 /\ sstream s1 = sstream s /\ w_state s1 = w_state s /\ w_max s1 = w_max s /\
  c_max (w_codec s1) = c_max (w_codec s) /\ w_rpend s1 = w_rpend s.
Proof. intros HSt Hp H. exact (frame_read_pending (read_and_handle_data HSt H) Hp). Qed.

Lemma next_frame_pending s s1 r :
  St s -> parse1 (c_max (w_codec s)) (sstream s) = PNeedMore ->
  next_frame_gen true s = (s1, r) ->
  r = FPending /\ St s1 /\ sstream s1 = sstream s /\ w_state s1 = w_state s /\ w_max s1 = w_max s /\
  c_max (w_codec s1) = c_max (w_codec s) /\ w_rpend s1 = w_rpend s.
Proof. intros HSt Hp H. exact (frame_read_pending (next_frame_data HSt H) Hp). Qed.

Lemma frag_seq_nonempty cont fs : frag_seq cont fs = true -> fs <> [].
Proof. destruct fs; [discriminate|intros _ H; discriminate]. Qed.

Theorem msg_loop_whole fs : forall fuel async s buflen acc cont mtype rest s' evs,
  St s -> pseq (c_max (w_codec s)) fs (sstream s) rest -> frag_seq cont fs = true ->
  (length fs <= fuel)%nat ->
  zlen acc + zlen (msg_payload fs) <= buflen -> zlen acc + zlen (msg_payload fs) <= w_max s ->
  msg_loop fuel async s buflen acc cont mtype = (s', evs) ->
  evs = msg_ctl fs ++ [EMsg (msg_type mtype fs) (zlen (acc ++ msg_payload fs)) (acc ++ msg_payload fs) eNone] /\
  St s' /\ sstream s' = rest /\ w_state s' = w_state s /\ w_max s' = w_max s /\ w_rpend s' = w_rpend s.
Proof. intros fuel async s buflen acc cont mtype rest s' evs HSt Hps Hfr Hfu. apply msg_loop_present; auto. Qed.
