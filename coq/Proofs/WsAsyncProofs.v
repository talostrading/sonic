(* C17: Model/WsAsync.v with the repaired (serialised) flush.  The functions that run completions take them out of the
   stream state first, so the invariant of a state is stated relative to the completions in hand. *)
From Sonic Require Import Base.Prelude Base.ListLemmas Model.WsAsync.
Local Open Scope Z_scope.

Definition contk_eqb (a b : contk) : bool :=
  match a, b with KRead, KRead => true | KApp i, KApp j => i =? j | _, _ => false end.
Fixpoint cnt (k : contk) (l : list contk) : Z :=
  match l with [] => 0 | x :: r => (if contk_eqb k x then 1 else 0) + cnt k r end.
Lemma cnt_app k a b : cnt k (a ++ b) = cnt k a + cnt k b.
Proof. induction a as [|x a IH]; cbn; [lia|]. rewrite IH. lia. Qed.
Lemma cnt_nonneg k l : 0 <= cnt k l.
Proof. induction l as [|x l IH]; cbn [cnt]; [lia|]. destruct (contk_eqb k x); lia. Qed.

Definition outstanding (s : wa) : list contk := (match a_chain s with Some k => [k] | None => [] end) ++ a_waiters s.

(* R: the completions in hand *)
Record cinv (R : list contk) (s : wa) : Prop := {
  v_serial : a_serial s = true;
  v_all : a_all s = a_done s ++ a_dst s ++ concat (a_pending s);
  v_wire : match a_wr s with
           | Some n => 0 <= n <= zlen (a_dst s) /\ a_wire s = a_done s ++ ztake n (a_dst s)
           | None => a_dst s = [] /\ a_wire s = a_done s
           end;
  v_flushing : a_flushing s = match a_wr s with Some _ => true | None => false end;
  v_idle : a_flushing s = false -> a_chain s = None /\ a_waiters s = [];
  v_cnt : forall k, cnt k (a_fstart s) = cnt k (a_fdone s) + cnt k (outstanding s) + cnt k R
}.
Arguments v_serial {R s}.  Arguments v_all {R s}.  Arguments v_wire {R s}.
Arguments v_flushing {R s}.  Arguments v_idle {R s}.  Arguments v_cnt {R s}.

(* A step touches few clauses: `constructor; cbn; try apply H` takes from the old invariant H every clause that reads the
   same for the new state (`apply` finds the projection). *)

Lemma cinv_queue R s f : cinv R s -> cinv R (queue_frame s f).
Proof.
  intros H. constructor; cbn; try apply H.
  rewrite (v_all H), concat_snoc, <- !app_assoc. reflexivity.
Qed.

Lemma cinv_fields R s s' :
  cinv R s ->
  a_serial s' = a_serial s -> a_pending s' = a_pending s -> a_dst s' = a_dst s -> a_wr s' = a_wr s -> a_chain s' = a_chain s ->
  a_flushing s' = a_flushing s -> a_waiters s' = a_waiters s -> a_wire s' = a_wire s -> a_done s' = a_done s -> a_all s' = a_all s ->
  a_fstart s' = a_fstart s -> a_fdone s' = a_fdone s -> cinv R s'.
Proof.
  intros H E1 E2 E3 E4 E5 E6 E7 E8 E9 E10 E11 E12.
  constructor; unfold outstanding; rewrite ?E1, ?E2, ?E3, ?E4, ?E5, ?E6, ?E7, ?E8, ?E9, ?E10, ?E11, ?E12; apply H.
Qed.

(* k moves from the hand to a_fdone; k is counted once more in a_fstart and in the hand *)
Lemma cinv_fdone R s k : cinv (k :: R) s -> cinv R (add_fdone s k).
Proof.
  intros H. constructor; cbn; try apply H.
  intros k0. pose proof (v_cnt H k0) as F. unfold outstanding in *. cbn in *. rewrite cnt_app. cbn. lia.
Qed.

Lemma cinv_fstart R s k : cinv (k :: R) (add_fstart s k) <-> cinv R s.
Proof.
  split; intros H; constructor; cbn; try apply H.
  all: intros k0; pose proof (v_cnt H k0) as F; unfold outstanding in *; cbn in *;
    rewrite (cnt_app k0 (a_fstart s)) in *; cbn in *; lia.
Qed.

Definition rdok (R : list contk) (s : wa) : Prop :=
  a_fuel_out s = false -> a_rd s <> None -> a_rwait s = true \/ 0 < cnt KRead (outstanding s) + cnt KRead R.

Lemma rdok_mono R R' s s' :
  rdok R s -> a_fuel_out s' = a_fuel_out s -> a_rd s' = a_rd s -> a_rwait s' = a_rwait s ->
  cnt KRead (outstanding s) + cnt KRead R <= cnt KRead (outstanding s') + cnt KRead R' -> rdok R' s'.
Proof. unfold rdok. intros H -> -> -> L X Y. destruct (H X Y) as [Z|Z]; [left; exact Z|right; lia]. Qed.

(* rdok under P: False in C17_invariant_every_step, since a step keeps cinv by itself; True on the reachable states *)
Definition ok (P : Prop) (R : list contk) (s : wa) : Prop := cinv R s /\ (P -> rdok R s).

Lemma ok_fields P R s s' :
  ok P R s ->
  a_serial s' = a_serial s -> a_pending s' = a_pending s -> a_dst s' = a_dst s -> a_wr s' = a_wr s -> a_chain s' = a_chain s ->
  a_flushing s' = a_flushing s -> a_waiters s' = a_waiters s -> a_wire s' = a_wire s -> a_done s' = a_done s -> a_all s' = a_all s ->
  a_fstart s' = a_fstart s -> a_fdone s' = a_fdone s -> a_fuel_out s' = a_fuel_out s -> a_rd s' = a_rd s -> a_rwait s' = a_rwait s ->
  ok P R s'.
Proof.
  intros [H Hr] E1 E2 E3 E4 E5 E6 E7 E8 E9 E10 E11 E12 E13 E14 E15. split; [eapply cinv_fields; eassumption|].
  intros p. eapply rdok_mono; [exact (Hr p)|assumption..|]. unfold outstanding. rewrite E5, E7. reflexivity.
Qed.

Lemma ok_fuel_out P R s : cinv R s -> a_fuel_out s = true -> ok P R s.
Proof. intros H E. split; [exact H|]. intros _ X. congruence. Qed.
Lemma ok_no_read P R s : cinv R s -> a_rd s = None -> ok P R s.
Proof. intros H E. split; [exact H|]. intros _ _ X. contradiction. Qed.
Lemma ok_armed P R s : cinv R s -> a_rwait s = true -> ok P R s.
Proof. intros H E. split; [exact H|]. intros _ _ _. left. exact E. Qed.

Lemma ok_queue P R s f : ok P R s -> ok P R (queue_frame s f).
Proof. intros [H Hr]. split; [exact (cinv_queue R s f H)|]. intros p. eapply rdok_mono; [exact (Hr p)|reflexivity..]. Qed.

Lemma ok_log P R s e : ok P R s -> ok P R (upd_log s e).
Proof. intros H. eapply ok_fields; [exact H|reflexivity..]. Qed.
Lemma ok_closed P R s : ok P R s -> ok P R (set_closed s).
Proof. intros H. eapply ok_fields; [exact H|reflexivity..]. Qed.

(* the read's own continuation establishes rdok, a callback keeps it *)
Lemma ok_fstart_read P R s : cinv R s -> ok P (KRead :: R) (add_fstart s KRead).
Proof.
  intros H. split; [apply cinv_fstart; exact H|]. intros _ _ _. right.
  pose proof (cnt_nonneg KRead (outstanding (add_fstart s KRead))). pose proof (cnt_nonneg KRead R). cbn [cnt contk_eqb]. lia.
Qed.
Lemma ok_fstart_app P R s id : ok P R s -> ok P (KApp id :: R) (add_fstart s (KApp id)).
Proof. intros [H Hr]. split; [apply cinv_fstart; exact H|]. intros p. eapply rdok_mono; [exact (Hr p)|reflexivity..]. Qed.

Lemma ok_wait P R s k : ok P (k :: R) s -> a_flushing s = true -> ok P R (add_waiter s k).
Proof.
  intros [H Hr] Ef. split.
  - constructor; cbn; try apply H.
    + rewrite Ef. discriminate.
    + intros k0. pose proof (v_cnt H k0) as F. unfold outstanding in *. cbn in *. rewrite !cnt_app in *. cbn. lia.
  - intros p. eapply rdok_mono; [exact (Hr p)|reflexivity..|].
    unfold outstanding. cbn -[cnt]. rewrite !cnt_app. cbn [cnt]. lia.
Qed.

Lemma ok_send P R s k fr rest :
  ok P (k :: R) s -> a_flushing s = false -> a_pending s = fr :: rest -> ok P R (send_head (set_flushing s true) (Some k)).
Proof.
  intros [H Hr] Ef Ep.
  destruct (v_idle H Ef) as [Ec Ew]. pose proof (v_flushing H) as Hfl. pose proof (v_wire H) as Hwire. rewrite Ef in Hfl.
  destruct (a_wr s); [discriminate|]. destruct Hwire as [Hdst Hwire].
  unfold send_head. cbn. rewrite Ep. split.
  - constructor; cbn; try apply H.
    + rewrite (v_all H), Ep, Hdst. reflexivity.
    + (* v_wire *) pose proof (zlen_nonneg (a_dst s ++ fr)). split; [lia|]. rewrite app_nil_r. exact Hwire.
    + (* v_flushing *) reflexivity.
    + (* v_idle *) discriminate.
    + intros k0. pose proof (v_cnt H k0) as F. unfold outstanding in *. rewrite Ec, Ew in *. cbn in *. lia.
  - intros p. eapply rdok_mono; [exact (Hr p)|reflexivity..|]. unfold outstanding. cbn. rewrite Ec, Ew. cbn [app cnt]. lia.
Qed.

(* run_cont and flush are entered with the completion k in hand and return with k run or stored in the state; handle_read
   re-establishes rdok whatever it was before (WaPoll calls it with the read reactor just disarmed).  In this file `_S`
   names the lemma that concludes a spec at S f, not an unfolding equation. *)
Definition handle_read_spec (P : Prop) (f : nat) : Prop := forall s R, cinv R s -> ok P R (handle_read f s).
Definition run_cont_spec (P : Prop) (f : nat) : Prop := forall s R k, ok P (k :: R) s -> ok P R (run_cont f s k).
Definition flush_spec (P : Prop) (f : nat) : Prop := forall s R k, ok P (k :: R) (add_fstart s k) -> ok P R (flush f s k).

Section Round.
  Variables (P : Prop) (f : nat).
  Hypothesis Hread : handle_read_spec P f.
  Hypothesis Hcont : run_cont_spec P f.
  Hypothesis Hflush : flush_spec P f.

  Lemma handle_read_S : handle_read_spec P (S f).
  Proof.
    intros s R H. cbn [handle_read]. destruct (a_src s) as [|[opc payload] rest].
    { apply ok_armed; [eapply cinv_fields; [exact H|reflexivity..]|reflexivity]. }
    assert (H0 : cinv R (set_src s rest)) by (eapply cinv_fields; [exact H|reflexivity..]).
    destruct (opc =? 9).
    - (* Ping: the Pong's flush continues this read *)
      apply Hflush, ok_fstart_read. destruct (a_state _ =? 1); [apply cinv_queue|]; exact H0.
    - cbn [a_rd set_src]. destruct (a_rd s) as [[rid blen]|] eqn:Erd; [|apply ok_no_read; [exact H0|exact Erd]].
      (* the read completes, with the message or with an error *)
      assert (H1 : ok P R (set_rd (set_src s rest) None))
        by (apply ok_no_read; [eapply cinv_fields; [exact H|reflexivity..]|reflexivity]).
      destruct (zlen payload >? blen); apply ok_log; [|exact H1].
      destruct (a_state _ =? 1); [|exact H1].
      apply Hflush, ok_fstart_app, ok_queue, ok_closed, H1.
  Qed.

  Lemma run_cont_S : run_cont_spec P (S f).
  Proof.
    intros s R k [H Hr]. cbn [run_cont]. pose proof (cinv_fdone R s k H) as H1.
    destruct k as [|id]; [exact (Hread _ R H1)|].
    assert (H2 : ok P R (add_fdone s (KApp id)))
      by (split; [exact H1|intros p; eapply rdok_mono; [exact (Hr p)|reflexivity..]]).
    set (s1 := if id <? 0 then add_fdone s (KApp id) else upd_log (add_fdone s (KApp id)) (id, 0, [])).
    assert (H3 : ok P R s1) by (unfold s1; destruct (id <? 0); [|apply ok_log]; exact H2).
    clearbody s1. destruct (nlookup id _) as [[id2 payload]|]; [|exact H3].
    destruct (a_state _ =? 1); [apply Hflush, ok_fstart_app, ok_queue|apply ok_log]; exact H3.
  Qed.

  Lemma flush_S : flush_spec P (S f).
  Proof.
    intros s R k H. cbn [flush]. pose proof (v_serial (proj1 H)) as Es. cbn in Es. rewrite Es. cbn [andb].
    destruct (a_flushing s) eqn:Ef; [exact (ok_wait P R _ k H Ef)|].
    destruct (a_pending s) as [|fr rest] eqn:Ep; [exact (Hcont _ R k H)|exact (ok_send P R _ k fr rest H Ef Ep)].
  Qed.
End Round.

Lemma machine P fuel : handle_read_spec P fuel /\ run_cont_spec P fuel /\ flush_spec P fuel.
Proof.
  induction fuel as [|f [Hread [Hcont Hflush]]]; (split; [|split]).
  (* no fuel: each function sets a_fuel_out, which makes rdok void *)
  - intros s R H. apply ok_fuel_out; [eapply cinv_fields; [exact H|reflexivity..]|reflexivity].
  - intros s R k [H _]. apply ok_fuel_out; [eapply cinv_fields; [exact (cinv_fdone R s k H)|reflexivity..]|reflexivity].
  - intros s R k [H _]. apply cinv_fstart in H. apply ok_fuel_out; [eapply cinv_fields; [exact H|reflexivity..]|reflexivity].
  - exact (handle_read_S P f Hflush).
  - exact (run_cont_S P f Hread Hflush).
  - exact (flush_S P f Hcont).
Qed.

(* The conjuncts by name: `apply (machine P wa_fuel)` makes the unifier try the wrong conjunct first and compare
   handle_read wa_fuel with flush wa_fuel by unfolding them, which takes minutes. *)
Lemma handle_read_ok P fuel : handle_read_spec P fuel.
Proof. exact (proj1 (machine P fuel)). Qed.
Lemma run_cont_ok P fuel : run_cont_spec P fuel.
Proof. exact (proj1 (proj2 (machine P fuel))). Qed.
Lemma flush_ok P fuel : flush_spec P fuel.
Proof. exact (proj2 (proj2 (machine P fuel))). Qed.

Lemma run_conts_ok P fuel : forall ks s R, ok P (ks ++ R) s -> ok P R (run_conts fuel s ks).
Proof.
  induction ks as [|k r IH]; intros s R H; cbn [run_conts]; [exact H|].
  apply IH, run_cont_ok, H.
Qed.

Lemma write_complete_ok P s n : ok P [] s -> a_wr s = Some n -> n = zlen (a_dst s) -> ok P [] (write_complete s).
Proof.
  intros [H Hr] Hw Hn. pose proof (v_wire H) as Hwire. pose proof (v_flushing H) as Hfl. rewrite Hw in Hwire, Hfl.
  destruct Hwire as [_ Hwire]. rewrite Hn, ztake_all in Hwire by lia.
  unfold write_complete. cbn.
  destruct (a_pending s) as [|fr rest] eqn:Ep.
  - (* the chain is complete: its completion and the waiters are taken in hand *)
    apply run_conts_ok. rewrite app_nil_r. split.
    + constructor; cbn; try apply H.
      * rewrite (v_all H), Ep. cbn. rewrite !app_nil_r. reflexivity.
      * (* v_wire *) split; [reflexivity|exact Hwire].
      * (* v_flushing *) reflexivity.
      * (* v_idle *) auto.
      * intros k0. pose proof (v_cnt H k0) as F. unfold outstanding in *. cbn in F. lia.
    + intros p. eapply rdok_mono; [exact (Hr p)|reflexivity..|]. cbn. fold (outstanding s). lia.
  - unfold send_head. cbn. split; [|intros p; eapply rdok_mono; [exact (Hr p)|reflexivity..]].
    constructor; cbn; try apply H.
    + rewrite (v_all H), Ep. cbn. rewrite <- !app_assoc. reflexivity.
    + pose proof (zlen_nonneg fr). split; [lia|]. rewrite app_nil_r. exact Hwire.
    + exact Hfl.
Qed.

Theorem wastep_ok P s o : ok P [] s -> ok P [] (wastep s o).
Proof.
  intros H. destruct o as [rid blen|wid payload|opc payload|cid|wid wid2 payload2|accept]; cbn [wastep].
  - (* WaRead *) apply flush_ok, ok_fstart_read. eapply cinv_fields; [exact (proj1 H)|reflexivity..].
  - (* WaWrite *) destruct (a_state s =? 1); [apply flush_ok, ok_fstart_app, ok_queue|apply ok_log]; exact H.
  - (* WaPeer *) eapply ok_fields; [exact H|reflexivity..].
  - (* WaClose *) destruct (a_state s =? 1); [apply flush_ok, ok_fstart_app, ok_queue, ok_closed|apply ok_log]; exact H.
  - (* WaChain *) eapply ok_fields; [exact H|reflexivity..].
  - (* WaPoll: the read side gives s1, then the write side *)
    set (s1 := if a_rwait s && negb (match a_inq s with [] => true | _ => false end) then _ else s).
    assert (H1 : ok P [] s1).
    { unfold s1. destruct (a_rwait s && _); [|exact H].
      apply handle_read_ok. eapply cinv_fields; [exact (proj1 H)|reflexivity..]. }
    clearbody s1. destruct (a_wr s); [|exact H1].
    destruct (a_wr s1) as [sofar|] eqn:Ew; [|exact H1].
    (* the transport takes n more bytes of dst *)
    pose proof H1 as [Hc1 Hr1]. pose proof (v_wire Hc1) as Hwire. rewrite Ew in Hwire. destruct Hwire as [Hsofar Hwire].
    set (n := Z.max 0 (Z.min accept (zlen (a_dst s1) - sofar))).
    assert (Hn : 0 <= n /\ sofar + n <= zlen (a_dst s1)) by (unfold n; lia).
    (* s2: s1 with a_wr := Some (sofar + n) and a_wire := a_wire s1 ++ zsub sofar (sofar + n) (a_dst s1) *)
    set (s2 := mkwa _ _ _ _ _ (Some (sofar + n)) _ _ _ _ _ _ _ _ _ _ _ _ _ _).
    assert (H2 : ok P [] s2).
    { split; [|intros p; eapply rdok_mono; [exact (Hr1 p)|reflexivity..]].
      constructor; cbn; try apply Hc1.
      - split; [lia|]. rewrite Hwire, <- app_assoc. f_equal.
        unfold zsub. replace (sofar + n - sofar) with n by lia. symmetry. apply ztake_extend; lia.
      - rewrite (v_flushing Hc1), Ew. reflexivity. }
    destruct (sofar + n =? zlen (a_dst s1)) eqn:Ec; [|exact H2].
    apply (write_complete_ok P s2 (sofar + n) H2); [reflexivity|apply Z.eqb_eq; exact Ec].
Qed.

Theorem warun_ok P ops : forall s, ok P [] s -> ok P [] (warun s ops).
Proof. induction ops as [|o r IH]; intros s H; [exact H|]. cbn [warun]. apply IH, wastep_ok, H. Qed.

Lemma reach_ok ops : ok True [] (warun (wa_init true) ops).
Proof. apply warun_ok, ok_no_read; [constructor; cbn; auto|reflexivity]. Qed.
