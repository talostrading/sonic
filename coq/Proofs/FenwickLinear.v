(* C20, Fenwick tree, every history of Adds: each Add keeps fw_inv (SlotsProofs) and moves the prefix sums it represents
   by delta from i on. *)
From Sonic Require Import Base.Prelude Model.Slots Proofs.SlotsProofs.
Local Open Scope Z_scope.

Fixpoint fw_adds (d : list Z) (adds : list (Z * Z)) : outcome (list Z) :=
  match adds with
  | [] => Ok d
  | (i, delta) :: r => match fw_add d i delta with Ok d' => fw_adds d' r | Panic => Panic end
  end.

Fixpoint prefix_of (adds : list (Z * Z)) (q : Z) : Z :=
  match adds with
  | [] => 0
  | (i, delta) :: r => (if i <=? q then delta else 0) + prefix_of r q
  end.

Lemma fw_adds_spec adds : forall d pre, Forall (fun p => 0 <= fst p) adds -> fw_inv d pre ->
  exists d', fw_adds d adds = Ok d' /\ zlen d' = zlen d /\ fw_inv d' (fun q => pre q + prefix_of adds q).
Proof.
  induction adds as [|[i delta] r IH]; intros d pre Hall Hinv; cbn [fw_adds prefix_of].
  - exists d. split; [reflexivity|]. split; [reflexivity|]. apply (fw_inv_ext d pre); [intros q; lia|exact Hinv].
  - inversion Hall as [|p r' Hi Hr]; subst. cbn [fst] in Hi.
    destruct (fw_add_spec d pre i delta Hinv Hi) as (d1 & -> & L1 & Hinv1).
    destruct (IH d1 _ Hr Hinv1) as (d' & E & L & Hinv'). exists d'. split; [exact E|]. split; [congruence|].
    apply (fw_inv_ext d' _ _ (fun q => eq_sym (Z.add_assoc _ _ _)) Hinv').
Qed.

Theorem fw_prefix_sums_all n adds :
  Forall (fun p => 0 <= fst p < n) adds ->
  exists d, fw_adds (fw_new n) adds = Ok d /\ length d = Z.to_nat n /\
            forall q, 0 <= q < n -> fw_sum_until d q = Ok (prefix_of adds q).
Proof.
  intros Hall.
  destruct (fw_adds_spec adds (fw_new n) _ (Forall_impl _ (fun p H => proj1 H) Hall) (fw_new_inv n))
    as (d & E & L & Hinv).
  rewrite zlen_fw_new in L. exists d. split; [exact E|]. split; [unfold zlen in L; lia|]. intros q Hq.
  apply (fw_sum_until_spec d _ q Hinv). lia.
Qed.

