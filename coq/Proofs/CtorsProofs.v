(* C13, descriptors (Model/Ctors.v): the lowest free number is not in the table ([lowest_free_fresh], by counting); live
   objects own distinct open descriptors ([live_ok]) and a guarded Close keeps that; an error path that closes as many
   descriptors as it allocated restores the table. *)
From Sonic Require Import Base.Prelude Base.ListLemmas Model.Ctors.
Local Open Scope Z_scope.

Lemma fd_close_In x fd t : In x (fd_close fd t) <-> In x t /\ x <> fd.
Proof. unfold fd_close. rewrite filter_In. destruct (Z.eqb_spec x fd); cbn [negb]; intuition congruence. Qed.

Lemma fd_close_not_in fd t : ~ In fd (fd_close fd t).
Proof. rewrite fd_close_In. intros [_ H]. apply H. reflexivity. Qed.

Lemma close_all_In l : forall t x, In x (fold_left (fun acc fd => fd_close fd acc) l t) <-> In x t /\ ~ In x l.
Proof.
  induction l as [|fd l IH]; intros t x; cbn [fold_left In]; [tauto|].
  rewrite IH, fd_close_In. intuition congruence.
Qed.

(* k itself is counted among the open numbers >= k and not among those >= k + 1 *)
Lemma count_ge_succ k t :
  (length (filter (Z.leb (k + 1)) t) + (if existsb (Z.eqb k) t then 1 else 0) <= length (filter (Z.leb k) t))%nat.
Proof.
  induction t as [|a t IH]; cbn [filter existsb length]; [lia|].
  destruct (Z.eqb_spec k a) as [<-|Hne]; cbn [orb].
  - rewrite Z.leb_refl. replace (k + 1 <=? k) with false by lia. cbn [length]. destruct (existsb (Z.eqb k) t); lia.
  - replace (k + 1 <=? a) with (k <=? a) by lia. destruct (k <=? a); cbn [length]; lia.
Qed.

(* the search stops before the fuel runs out: each step past a taken number leaves fewer open numbers ahead *)
Lemma lowest_free_fresh fuel : forall t k, (length (filter (Z.leb k) t) < fuel)%nat -> ~ In (lowest_free fuel t k) t.
Proof.
  induction fuel as [|f IH]; intros t k Hl; [lia|]. cbn [lowest_free].
  pose proof (count_ge_succ k t) as Hc. destruct (existsb (Z.eqb k) t) eqn:E.
  - apply IH. lia.
  - intros Hin. apply not_true_iff_false in E. apply E. apply existsb_exists. exists k. split; [exact Hin|apply Z.eqb_refl].
Qed.

Lemma fd_alloc_spec t : exists fd, fd_alloc t = (fd, fd :: t) /\ ~ In fd t.
Proof.
  eexists. split; [reflexivity|]. apply lowest_free_fresh. pose proof (filter_len_le (Z.leb 0) t). lia.
Qed.

Definition live_ok (s : fstate) : Prop :=
  (forall id ob, flookup id (fs_objs s) = Some ob -> f_closed ob = false -> In (f_fd ob) (fs_table s)) /\
  (forall i j a b, flookup i (fs_objs s) = Some a -> flookup j (fs_objs s) = Some b -> i <> j ->
                   f_closed a = false -> f_closed b = false -> f_fd a <> f_fd b).

Lemma flookup_fupdate k v l j : flookup j (fupdate k v l) = if j =? k then Some v else flookup j l.
Proof.
  induction l as [|[k' v'] r IH]; cbn [fupdate flookup]; [reflexivity|].
  destruct (Z.eqb_spec k k') as [<-|Hk]; cbn [flookup].
  - destruct (j =? k); reflexivity.
  - rewrite IH. destruct (Z.eqb_spec j k'), (Z.eqb_spec j k); congruence.
Qed.

(* what FNew and FClose share *)
Lemma live_ok_fupdate t objs g t' id ob :
  live_ok (mkfs t objs g) ->
  (f_closed ob = false -> In (f_fd ob) t') ->
  (forall j b, j <> id -> flookup j objs = Some b -> f_closed b = false ->
               In (f_fd b) t' /\ (f_closed ob = false -> f_fd b <> f_fd ob)) ->
  live_ok (mkfs t' (fupdate id ob objs) g).
Proof.
  intros [_ L2] Hob Hoth. split; cbn [fs_objs fs_table] in *.
  - intros j b Hl Hc. rewrite flookup_fupdate in Hl. destruct (Z.eqb_spec j id) as [->|Hj].
    + inversion Hl; subst b. exact (Hob Hc).
    + apply (Hoth j b Hj Hl Hc).
  - intros i j a b Ha Hb Hne Hca Hcb. rewrite flookup_fupdate in Ha, Hb.
    destruct (Z.eqb_spec i id) as [->|Hi], (Z.eqb_spec j id) as [->|Hj].
    + (* both *) contradiction.
    + (* i *) inversion Ha; subst a. apply not_eq_sym. apply (Hoth j b Hj Hb Hcb). exact Hca.
    + (* j *) inversion Hb; subst b. apply (Hoth i a Hi Ha Hca). exact Hcb.
    + (* neither *) eapply L2; eassumption.
Qed.

Theorem fstep_live_ok s o : fs_guarded s = true -> live_ok s -> live_ok (fstep s o).
Proof.
  destruct s as [t objs g]. cbn [fs_guarded]. intros -> Hi. pose proof Hi as [L1 L2]. cbn [fs_objs fs_table] in L1, L2.
  destruct o as [id|id]; cbn [fstep fs_table fs_objs fs_guarded].
  - (* FNew: the new number is not in the table, so no live object holds it *)
    destruct (fd_alloc_spec t) as (fd & -> & Hfr).
    apply (live_ok_fupdate t); cbn [f_fd f_closed]; [exact Hi|left; reflexivity|].
    intros j b _ Hl Hc. pose proof (L1 j b Hl Hc) as Hin. split; [right; exact Hin|].
    intros _ E. apply Hfr. rewrite <- E. exact Hin.
  - destruct (flookup id objs) as [ob|] eqn:El; [|exact Hi].
    (* a repeated Close touches nothing *)
    destruct (f_closed ob) eqn:Ec; cbn [andb]; [exact Hi|].
    (* a first Close removes a number that no other live object holds (L2) *)
    apply (live_ok_fupdate t); cbn [f_fd f_closed]; [exact Hi|discriminate|].
    intros j b Hj Hl Hc. split; [|discriminate].
    apply fd_close_In. split; [exact (L1 j b Hl Hc)|exact (L2 j id b ob Hl El Hj Hc Ec)].
Qed.

Lemma alloc_n_spec n : forall t got, exists news,
  alloc_n n t got = (news ++ t, news ++ got) /\ length news = n /\ forall x, In x news -> ~ In x t.
Proof.
  induction n as [|n IH]; intros t got; cbn [alloc_n].
  - exists []. split; [reflexivity|]. split; [reflexivity|]. intros x [].
  - destruct (fd_alloc_spec t) as (fd & -> & Hfr). destruct (IH (fd :: t) (fd :: got)) as (news & -> & Hlen & Hnew).
    exists (news ++ [fd]). rewrite <- !app_assoc. split; [reflexivity|]. split; [rewrite app_length; cbn; lia|].
    intros x Hx Hin. apply in_app_or in Hx. destruct Hx as [Hx|[<-|[]]].
    + apply (Hnew x Hx). right. exact Hin.
    + exact (Hfr Hin).
Qed.

Theorem run_path_balanced t p : fst p = snd p -> forall x, In x (run_path t p) <-> In x t.
Proof.
  intros Hb x. unfold run_path. rewrite <- Hb.
  destruct (alloc_n_spec (Z.to_nat (fst p)) t []) as (news & -> & Hlen & Hnew).
  rewrite app_nil_r, <- Hlen, firstn_all, close_all_In, in_app_iff.
  split; [tauto|]. intros Hx. split; [tauto|]. intros Hn. exact (Hnew x Hn Hx).
Qed.
