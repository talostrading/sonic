(* C10: the regenerated BipBuffer cursor code in closed form, the cursor invariant under each operation, and the queue
   under cursor moves and under writes through the claim. *)
From Sonic Require Import Base.Prelude Base.ListLemmas Gen.BipBuffer Model.BipMem.
Local Open Scope Z_scope.

(* The queue is the main region [h, t) followed by the wrapped region [wh, wt), which starts at 0 and lies below the
   main one.  wt > 0 -> h < t: Consume promotes the wrapped region the moment the main one empties.  h = t -> h = 0:
   Consume and Reset leave an empty queue at the start of the array, which is why an empty buffer can grant its whole
   size.  A non-empty claim [ch, ct) lies behind the main region with nothing wrapped, or behind the wrapped region and
   below head, or anywhere if the queue is empty: what a Consume that empties the queue under a live claim leaves. *)
Definition cinv (c : BipBuffer) : Prop :=
  let size := BipBuffer_data_len c in
  let h := BipBuffer_head c in let t := BipBuffer_tail c in
  let wh := BipBuffer_wrappedHead c in let wt := BipBuffer_wrappedTail c in
  let ch := BipBuffer_claimHead c in let ct := BipBuffer_claimTail c in
  wh = 0 /\ 0 <= wt <= h /\ h <= t <= size /\
  (wt > 0 -> h < t) /\ (h = t -> h = 0) /\
  0 <= ch <= ct /\ ct <= size /\
  (ch < ct -> (ch = t /\ wt = 0) \/ (ch = wt /\ ct <= h) \/ (h = t /\ wt = 0)).

Definition live_ok (c : BipBuffer) (l : option slice) : Prop :=
  match l with
  | None => True
  | Some r => soff r = BipBuffer_claimHead c /\ soff r + slen r = BipBuffer_claimTail c
  end.

Definition binv (s : bst) : Prop :=
  cinv (cur s) /\ zlen (mem s) = BipBuffer_data_len (cur s) /\ live_ok (cur s) (live s) /\
  0 <= gcons s /\ BipBuffer_Committed (cur s) = zlen (glog s) - gcons s /\
  babs s = zdrop (gcons s) (glog s).

(* the linear part of cinv, without the clauses that make lia split cases *)
Lemma cinv_bounds c : cinv c ->
  BipBuffer_wrappedHead c = 0 /\ 0 <= BipBuffer_wrappedTail c <= BipBuffer_head c /\
  BipBuffer_head c <= BipBuffer_tail c <= BipBuffer_data_len c /\
  0 <= BipBuffer_claimHead c <= BipBuffer_claimTail c /\ BipBuffer_claimTail c <= BipBuffer_data_len c.
Proof. unfold cinv. tauto. Qed.

(* cinv in two parts: what lia takes whole, and the clause on the claim *)
Lemma cinv_intro size h t wh wt ch ct :
  wh = 0 /\ 0 <= wt <= h /\ h <= t <= size /\ (wt > 0 -> h < t) /\ (h = t -> h = 0) /\ 0 <= ch <= ct /\ ct <= size ->
  (ch < ct -> (ch = t /\ wt = 0) \/ (ch = wt /\ ct <= h) \/ (h = t /\ wt = 0)) ->
  cinv (mkBipBuffer size h t wh wt ch ct).
Proof. unfold cinv; cbn. tauto. Qed.

Lemma cinv_elim size h t wh wt ch ct : cinv (mkBipBuffer size h t wh wt ch ct) ->
  (wh = 0 /\ 0 <= wt <= h /\ h <= t <= size /\ (wt > 0 -> h < t) /\ (h = t -> h = 0) /\ 0 <= ch <= ct /\ ct <= size) /\
  (ch < ct -> (ch = t /\ wt = 0) \/ (ch = wt /\ ct <= h) \/ (h = t /\ wt = 0)).
Proof. unfold cinv; cbn. tauto. Qed.

Lemma binv_cinv s : binv s -> cinv (cur s).
Proof. intros H. apply H. Qed.

Lemma binv_mem s : binv s -> zlen (mem s) = BipBuffer_data_len (cur s).
Proof. intros H. apply H. Qed.

Lemma committed_nonneg c : cinv c -> 0 <= BipBuffer_Committed c.
Proof. intros Hi. pose proof (cinv_bounds c Hi). unfold BipBuffer_Committed. lia. Qed.

Definition with_claim (c : BipBuffer) (p q : Z) : BipBuffer :=
  set_BipBuffer_claimTail (set_BipBuffer_claimHead c p) q.

(* the free block Claim grants from, as (start, length) *)
Definition claim_block (c : BipBuffer) : Z * Z :=
  if BipBuffer_Wrapped c then (BipBuffer_wrappedTail c, BipBuffer_head c - BipBuffer_wrappedTail c)
  else if BipBuffer_head c <=? BipBuffer_Size c - BipBuffer_tail c
       then (BipBuffer_tail c, BipBuffer_Size c - BipBuffer_tail c)
       else (0, BipBuffer_head c).

Definition claim_to (c : BipBuffer) (n : Z) : BipBuffer * option slice :=
  let '(p, f) := claim_block c in
  if f =? 0 then (c, None) else (with_claim c p (p + Z.min n f), Some (mkslice p (Z.min n f))).

Definition commit_to (c : BipBuffer) (k : Z) : BipBuffer :=
  let ch := BipBuffer_claimHead c in
  with_claim (if BipBuffer_Committed c =? 0 then set_BipBuffer_tail (set_BipBuffer_head c ch) (ch + k)
              else if ch =? BipBuffer_tail c then set_BipBuffer_tail c (BipBuffer_tail c + k)
              else set_BipBuffer_wrappedTail c (BipBuffer_wrappedTail c + k)) 0 0.

Definition consume_to (c : BipBuffer) (n : Z) : BipBuffer :=
  if n >=? BipBuffer_tail c - BipBuffer_head c
  then mkBipBuffer (BipBuffer_data_len c) (BipBuffer_wrappedHead c) (BipBuffer_wrappedTail c) 0 0
         (BipBuffer_claimHead c) (BipBuffer_claimTail c)
  else set_BipBuffer_head c (BipBuffer_head c + n).

Lemma claim_block_fits c : cinv c ->
  let '(p, f) := claim_block c in
  0 <= p /\ 0 <= f /\ p + f <= BipBuffer_data_len c /\
  ((p = BipBuffer_tail c /\ BipBuffer_wrappedTail c = 0) \/ (p = BipBuffer_wrappedTail c /\ p + f <= BipBuffer_head c)).
Proof.
  destruct c as [size h t wh wt ch ct]. intros Hi. apply cinv_elim in Hi as [Hl _].
  unfold claim_block, BipBuffer_Wrapped, BipBuffer_Size; cbn.
  destruct (_ - _ >? 0) eqn:E; [|destruct (_ <=? _) eqn:E2]; lia.
Qed.

(* the three branches of Claim are this code, each on its own free block (p, f) *)
Lemma Claim_block_eq c p f n : 0 <= p -> 0 <= f -> p + f <= BipBuffer_data_len c -> 0 <= n ->
  let grant k :=
    let c' := with_claim c p (p + k) in
    obind (slice_of (BipBuffer_data_len c') (BipBuffer_claimHead c') (BipBuffer_claimTail c'))
      (fun r => Ok (c', Some r)) in
  (if f =? 0 then Ok (c, None) else if f >? n then grant n else grant f)
  = Ok (if f =? 0 then (c, None) else (with_claim c p (p + Z.min n f), Some (mkslice p (Z.min n f)))).
Proof.
  intros Hp Hf Hfit Hn grant. destruct (f =? 0); [reflexivity|]. rewrite (clamp_if f n grant).
  unfold grant. cbn. rewrite slice_of_ok by lia. replace (p + Z.min n f - p) with (Z.min n f) by lia. reflexivity.
Qed.

Lemma Claim_eq c n : cinv c -> 0 <= n -> BipBuffer_Claim c n = Ok (claim_to c n).
Proof.
  intros Hi Hn. pose proof (claim_block_fits c Hi) as Hfit. unfold BipBuffer_Claim, claim_to, claim_block in *.
  destruct (BipBuffer_Wrapped c); [|destruct (BipBuffer_head c <=? _)]; cbv zeta; destruct Hfit as (Hp & Hf & Hfit & _).
  - apply Claim_block_eq; assumption.
  - apply Claim_block_eq; assumption.
  - apply Claim_block_eq; assumption.
Qed.

Lemma Commit_eq c n : cinv c ->
  BipBuffer_Commit c n =
  let k := Z.min n (BipBuffer_Claimed c) in
  Ok (if k <=? 0 then (with_claim c 0 0, None) else (commit_to c k, Some (mkslice (BipBuffer_claimHead c) k))).
Proof.
  intros Hi. unfold BipBuffer_Commit, BipBuffer_Claimed, commit_to. cbv zeta.
  erewrite (clamp_if _ n (fun k => _)). set (k := Z.min n _).
  destruct (k <=? 0) eqn:E0; [reflexivity|].
  (* something is committed, so the claim is not empty and cinv says where it lies *)
  destruct c as [size h t wh wt ch ct]. apply cinv_elim in Hi as [Hl Hcl].
  unfold BipBuffer_Committed; cbn in *. specialize (Hcl ltac:(lia)).
  destruct (_ =? 0) eqn:E1; [|destruct (ch =? t) eqn:E2].
  - rewrite slice_of_ok by lia. cbn [obind]. repeat f_equal; lia.
  - rewrite slice_of_ok by lia. cbn [obind]. repeat f_equal; lia.
  - rewrite slice_of_ok by lia. cbn [obind]. repeat f_equal; lia.
Qed.

Lemma Consume_eq c n : BipBuffer_Consume c n = Ok (consume_to c n, tt).
Proof. unfold BipBuffer_Consume, consume_to. destruct (_ >=? _); reflexivity. Qed.

Lemma Head_eq c : cinv c ->
  BipBuffer_Head c =
  Ok (c, if BipBuffer_tail c - BipBuffer_head c >? 0
         then Some (mkslice (BipBuffer_head c) (BipBuffer_tail c - BipBuffer_head c)) else None).
Proof.
  intros Hi. pose proof (cinv_bounds c Hi). unfold BipBuffer_Head. destruct (_ >? 0) eqn:E; [|reflexivity].
  rewrite slice_of_ok by lia. reflexivity.
Qed.

Lemma Reset_eq c : BipBuffer_Reset c = Ok (mkBipBuffer (BipBuffer_data_len c) 0 0 0 0 0 0, tt).
Proof. reflexivity. Qed.

(* the first conjunct lets callers see, by computation, that whatever does not mention the claim cursors is as in c *)
Lemma claim_cinv c n : cinv c -> 0 <= n ->
  let '(c', r) := claim_to c n in
  (exists p q, c' = with_claim c p q) /\ cinv c' /\ live_ok c' r /\
  match r with Some x => 0 <= slen x <= n | None => True end.
Proof.
  intros Hi Hn. pose proof (claim_block_fits c Hi) as Hfit. unfold claim_to.
  destruct (claim_block c) as [p f]. destruct c as [size h t wh wt ch ct].
  destruct (f =? 0) eqn:E.
  - split; [exists ch, ct; reflexivity|]. exact (conj Hi (conj I I)).
  - (* where the new claim lies is said by claim_block_fits *)
    split; [eexists _, _; reflexivity|]. apply cinv_elim in Hi as [Hl _]. cbn in *.
    split; [|lia]. apply cinv_intro; cbn; [lia|intros _; lia].
Qed.

Lemma commit_cinv c k : cinv c -> 0 < k <= BipBuffer_Claimed c ->
  cinv (commit_to c k) /\ BipBuffer_data_len (commit_to c k) = BipBuffer_data_len c.
Proof.
  destruct c as [size h t wh wt ch ct]. unfold commit_to, BipBuffer_Claimed, BipBuffer_Committed; cbn.
  intros Hi Hk. apply cinv_elim in Hi as [Hl Hcl]. specialize (Hcl ltac:(lia)).
  (* afterwards there is no claim *)
  destruct (_ =? 0) eqn:E1; [|destruct (ch =? t) eqn:E2]; (split; [|reflexivity]).
  all: apply cinv_intro; cbn; [lia|intros Hlt; lia].
Qed.

Lemma unclaim_cinv c : cinv c -> cinv (with_claim c 0 0).
Proof.
  destruct c as [size h t wh wt ch ct]. intros Hi. apply cinv_elim in Hi as [Hl _].
  apply cinv_intro; cbn; [lia|intros Hlt; lia].
Qed.

Lemma consume_cinv c n : cinv c -> 0 <= n ->
  let c' := consume_to c n in
  cinv c' /\ BipBuffer_data_len c' = BipBuffer_data_len c /\
  BipBuffer_claimHead c' = BipBuffer_claimHead c /\ BipBuffer_claimTail c' = BipBuffer_claimTail c.
Proof.
  destruct c as [size h t wh wt ch ct]. intros Hi Hn. apply cinv_elim in Hi as [Hl Hcl]. unfold consume_to; cbn.
  destruct (_ >=? _) eqn:E; (split; [|repeat split]); apply cinv_intro; cbn.
  - (* the wrapped region takes the place of the main one *)
    lia.
  - (* a claim behind the wrapped region now lies behind the main one; a claim behind the old main region now finds
       the queue empty: the third place of a claim *)
    intros Hlt. specialize (Hcl Hlt). lia.
  - (* head advances inside the main region *)
    lia.
  - intros Hlt. specialize (Hcl Hlt). lia.
Qed.

Definition queue (c : BipBuffer) (m : list Z) : list Z :=
  zsub (BipBuffer_head c) (BipBuffer_tail c) m ++ zsub (BipBuffer_wrappedHead c) (BipBuffer_wrappedTail c) m.

Lemma babs_queue s : babs s = queue (cur s) (mem s).
Proof. reflexivity. Qed.

Lemma queue_commit c m k :
  cinv c -> 0 < k <= BipBuffer_Claimed c ->
  let c' := commit_to c k in
  let ch := BipBuffer_claimHead c in
  queue c' m = queue c m ++ zsub ch (ch + k) m /\
  BipBuffer_Committed c' = BipBuffer_Committed c + k /\
  ((BipBuffer_head c' <= ch /\ ch + k <= BipBuffer_tail c') \/
   (BipBuffer_wrappedHead c' <= ch /\ ch + k <= BipBuffer_wrappedTail c')).
Proof.
  destruct c as [size h t wh wt ch ct]. unfold commit_to, queue, BipBuffer_Claimed, BipBuffer_Committed; cbn.
  intros Hi Hk. apply cinv_elim in Hi as [Hl Hcl]. specialize (Hcl ltac:(lia)).
  destruct (_ =? 0) eqn:E1; [|destruct (ch =? t) eqn:E2]; cbn.
  - rewrite (zsub_empty h t), (zsub_empty wh wt) by lia. rewrite app_nil_r. split; [reflexivity|lia].
  - replace ch with t by lia. rewrite (zsub_split h (t + k) t) by lia.
    rewrite (zsub_empty wh wt), !app_nil_r by lia. split; [reflexivity|lia].
  - replace ch with wt by lia. rewrite (zsub_split wh (wt + k) wt) by lia.
    rewrite app_assoc. split; [reflexivity|lia].
Qed.

Lemma queue_consume c m n :
  cinv c -> zlen m = BipBuffer_data_len c -> 0 <= n ->
  let c' := consume_to c n in
  let k := Z.min n (BipBuffer_tail c - BipBuffer_head c) in
  queue c' m = zdrop k (queue c m) /\ BipBuffer_Committed c' = BipBuffer_Committed c - k /\ 0 <= k <= n.
Proof.
  destruct c as [size h t wh wt ch ct]. unfold consume_to, queue, BipBuffer_Committed; cbn.
  intros Hi Hm Hn. apply cinv_elim in Hi as [Hl _].
  assert (Hz : zlen (zsub h t m) = t - h) by (apply zlen_zsub; lia).
  destruct (_ >=? _) eqn:E; cbn.
  - rewrite Z.min_r by lia. rewrite <- Hz, zdrop_app_exact. rewrite ?(zsub_empty 0 0) by lia. rewrite app_nil_r.
    split; [reflexivity|lia].
  - rewrite Z.min_l by lia. rewrite zdrop_app_l by lia. rewrite zdrop_zsub by lia. split; [reflexivity|lia].
Qed.

(* cinv keeps a non-empty claim off both regions *)
Lemma queue_zwrite c m off w :
  cinv c -> zlen m = BipBuffer_data_len c -> BipBuffer_claimHead c <= off -> off + zlen w <= BipBuffer_claimTail c ->
  queue c (zwrite off w m) = queue c m.
Proof.
  pose proof (zlen_nonneg w). destruct (Z.eq_dec (zlen w) 0) as [Hz|Hz].
  { apply zlen_zero_nil in Hz. subst w. rewrite zwrite_nil. reflexivity. }
  destruct c as [size h t wh wt ch ct]. unfold queue; cbn. intros Hi Hm H1 H2.
  apply cinv_elim in Hi as [Hl Hcl]. specialize (Hcl ltac:(lia)).
  destruct Hcl as [[Hch Hwt]|[[Hch Hct]|[Hht Hwt]]].
  - f_equal; [apply zsub_zwrite_before; lia|rewrite !zsub_empty by lia; reflexivity].
  - f_equal; [apply zsub_zwrite_after; lia|apply zsub_zwrite_before; lia].
  - rewrite !zsub_empty by lia. reflexivity.
Qed.

(* babs (mkbst c m lv lg gc) computes to queue c m *)
Lemma binv_intro c m lv lg gc :
  cinv c -> zlen m = BipBuffer_data_len c -> live_ok c lv -> 0 <= gc ->
  BipBuffer_Committed c = zlen lg - gc -> queue c m = zdrop gc lg -> binv (mkbst c m lv lg gc).
Proof. intros H1 H2 H3 H4 H5 H6. exact (conj H1 (conj H2 (conj H3 (conj H4 (conj H5 H6))))). Qed.

Lemma write_live_abs s w s' k :
  binv s -> write_live s w = (s', k) -> babs s' = babs s /\ binv s'.
Proof.
  unfold write_live. intros Hb. pose proof Hb as (Hi & Hm & Hl & Hg & Hc & Ha).
  destruct (live s) as [r|] eqn:El; intros [= <- <-]; [|auto].
  destruct Hl as [Hl1 Hl2].
  pose proof (cinv_bounds _ Hi) as Hbd.
  assert (zlen (ztake (slen r) w) <= slen r) by (apply zlen_ztake_le; lia).
  assert (Hq : queue (cur s) (zwrite (soff r) (ztake (slen r) w) (mem s)) = babs s).
  { rewrite babs_queue. apply queue_zwrite; (assumption || lia). }
  split; [exact Hq|]. apply binv_intro; try assumption.
  - rewrite zlen_zwrite by lia. exact Hm.
  - split; assumption.
  - rewrite Hq. exact Ha.
Qed.

Lemma bstep_ok s o : binv s -> nonneg_op o -> exists s' r, bstep s o = Ok (s', r) /\ binv s'.
Proof.
  intros Hb Hn. pose proof Hb as (Hi & Hm & Hl & Hg & Hc & Ha). pose proof (committed_nonneg _ Hi) as Hcn.
  pose proof (cinv_bounds _ Hi) as Hbd. rewrite babs_queue in Ha.
  destruct o as [n|st|w|n|n| |]; cbn [bstep nonneg_op] in *.
  - rewrite Claim_eq by assumption. cbn [obind]. pose proof (claim_cinv _ n Hi Hn) as Hcl.
    destruct (claim_to (cur s) n) as [c rr]. destruct Hcl as ((p & q & ->) & Hi' & Hlv & _).
    eexists _, _. split; [reflexivity|].
    (* with_claim moves the claim cursors only: Hm, Hc and Ha hold of the new cursors by computation *)
    apply binv_intro; assumption.
  - (* Fill *)
    destruct (live s) as [rr|] eqn:El; [|eauto].
    destruct (write_live s _) as [s1 k] eqn:E. eexists _, _. split; [reflexivity|]. eapply write_live_abs; eauto.
  - (* Write *)
    destruct (write_live s w) as [s1 k] eqn:E. eexists _, _. split; [reflexivity|]. eapply write_live_abs; eauto.
  - rewrite Commit_eq by assumption. cbv zeta. pose proof (unclaim_cinv _ Hi).
    destruct (_ <=? 0) eqn:E; cbn [obind content_of soff slen]; (eexists _, _; split; [reflexivity|]).
    + rewrite app_nil_r. apply binv_intro; (assumption || exact I).
    + set (k := Z.min n _) in *.
      assert (Hk : 0 < k <= BipBuffer_Claimed (cur s)) by lia.
      destruct (commit_cinv (cur s) k Hi Hk) as [Hi' Hsz].
      destruct (queue_commit (cur s) (mem s) k Hi Hk) as (Hq & Hc' & _). unfold BipBuffer_Claimed in Hk.
      apply binv_intro; [exact Hi'|lia|exact I|exact Hg| |].
      * (* Committed against the ghost log *) rewrite zlen_app, zlen_zsub by lia. lia.
      * (* the queue *) rewrite Hq, Ha, zdrop_app_l by lia. reflexivity.
  - rewrite Consume_eq. cbn [obind]. eexists _, _. split; [reflexivity|].
    destruct (consume_cinv _ n Hi Hn) as (Hi' & Hsz & Hch' & Hct').
    destruct (queue_consume _ (mem s) n Hi Hm Hn) as (Hq & Hc' & Hk).
    apply binv_intro; [exact Hi'|lia| |lia|lia|].
    + (* the live claim *) destruct (live s); [unfold live_ok in *; lia|exact I].
    + (* the queue *) rewrite Hq, Ha, zdrop_zdrop by lia. f_equal. lia.
  - rewrite Head_eq by assumption. cbn [obind]. eexists _, _. split; [reflexivity|]. destruct s; exact Hb.
  - rewrite Reset_eq. cbn [obind]. eexists _, _. split; [reflexivity|].
    apply binv_intro; unfold cinv, queue, BipBuffer_Committed; cbn; try (exact I || reflexivity || lia).
Qed.

Lemma bstep_inv s o s' r : binv s -> nonneg_op o -> bstep s o = Ok (s', r) -> binv s'.
Proof. intros Hb Hn E. destruct (bstep_ok s o Hb Hn) as (s1 & r1 & E1 & Hb1). congruence. Qed.

Lemma binit_inv size : 0 <= size -> binv (binit size).
Proof.
  intros H. unfold binv, binit, cinv, babs, BipBuffer_Committed; cbn.
  rewrite zlen_repeat by lia. repeat split; (reflexivity || lia).
Qed.

Lemma brun_inv ops : forall s, binv s -> Forall nonneg_op ops ->
  exists s', brun s ops = Ok s' /\ binv s'.
Proof.
  induction ops as [|o ops IH]; intros s Hb Hf; cbn [brun].
  - eauto.
  - inversion Hf as [|? ? Ho Hrest]; subst.
    destruct (bstep_ok s o Hb Ho) as (s1 & r & -> & Hb1). cbn [obind]. apply IH; assumption.
Qed.
