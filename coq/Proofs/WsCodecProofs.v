(* C07: the frame decoder model (Model/WsCodec.v) against the pure parser (Spec/FrameParser.v): Decode is parse1 on the
   unread bytes whatever the segmentation, and what the encoder builds parses back. *)
From Sonic Require Import Base.Prelude Base.ListLemmas Gen.Consts Spec.ThreeFifo Model.WsFrame
  Spec.FrameParser Model.WsCodec.
Local Open Scope Z_scope.

Definition is_byte (b : Z) : Prop := 0 <= b < 256.
Definition bytes (l : list Z) : Prop := Forall is_byte l.

Lemma byte_sweep (P : Z -> bool) : forallb P (map Z.of_nat (seq 0 256)) = true -> forall b, is_byte b -> P b = true.
Proof.
  intros Ha b H. unfold is_byte in H. rewrite forallb_forall in Ha. apply Ha.
  apply in_map_iff. exists (Z.to_nat b). split; [lia|]. apply in_seq. lia.
Qed.

Lemma land128 b : is_byte b -> negb (Z.land b 128 =? 0) = (128 <=? b).
Proof.
  intros H. apply Bool.eqb_prop. revert b H.
  apply (byte_sweep (fun b => Bool.eqb (negb (Z.land b 128 =? 0)) (128 <=? b))). vm_compute. reflexivity.
Qed.

Lemma land127 b : Z.land b 127 = b mod 128.
Proof. exact (Z.land_ones b 7 ltac:(lia)). Qed.

Lemma land15 b : Z.land b 15 = b mod 16.
Proof. exact (Z.land_ones b 4 ltac:(lia)). Qed.

Lemma be_app l x : be (l ++ [x]) = be l * 256 + x.
Proof. unfold be. rewrite fold_left_app. reflexivity. Qed.

(* used by no proof *)
Lemma be_value_eq l : be_value l = be l.
Proof. reflexivity. Qed.

Lemma be_bound l : bytes l -> 0 <= be l < 256 ^ zlen l.
Proof.
  induction l as [|x l IH] using rev_ind; intros Hb.
  - cbn. lia.
  - apply Forall_app in Hb. destruct Hb as [Hl Hx]. inversion Hx as [|? ? Hxb _]; subst. unfold is_byte in Hxb.
    specialize (IH Hl). rewrite be_app, zlen_app. unfold zlen at 2; cbn [length].
    pose proof (zlen_nonneg l). rewrite Z.pow_add_r by lia. change (256 ^ Z.of_nat 1) with 256. nia.
Qed.

Lemma bytes_ztake n l : bytes l -> bytes (ztake n l).
Proof. apply Forall_firstn. Qed.

Lemma bytes_zdrop n l : bytes l -> bytes (zdrop n l).
Proof. apply Forall_skipn. Qed.

Lemma bytes_zsub a b l : bytes l -> bytes (zsub a b l).
Proof. intros H. unfold zsub. apply bytes_ztake, bytes_zdrop, H. Qed.

Lemma bytes_app a b : bytes a -> bytes b -> bytes (a ++ b).
Proof. intros. apply Forall_app; auto. Qed.

Lemma bytes_nth i l : bytes l -> is_byte (nth i l 0).
Proof.
  intros H. destruct (Nat.lt_ge_cases i (length l)) as [Hi|Hi].
  - unfold bytes in H. rewrite Forall_forall in H. apply H. apply nth_In. exact Hi.
  - rewrite nth_overflow by lia. unfold is_byte. lia.
Qed.

Lemma tprep_spec s n V : t_read s ++ t_pend s = V ->
  exists s', tprep s n = (s', negb (zlen V <? n)) /\ t_read s' ++ t_pend s' = V /\
             (n <= zlen V -> n <= zlen (t_read s')).
Proof.
  intros <-. unfold tprep. cbn [tfstep]. rewrite zlen_app.
  pose proof (zlen_nonneg (t_pend s)).
  destruct ((0 <? n - zlen (t_read s)) && (n - zlen (t_read s) <=? zlen (t_pend s))) eqn:E.
  - (* enough pending: the missing bytes are committed *)
    eexists. split; [f_equal; lia|]. cbn [t_read t_pend].
    split; [rewrite <- app_assoc, ztake_zdrop_split; reflexivity|]. rewrite zlen_app, zlen_ztake by lia. lia.
  - destruct (0 <? n - zlen (t_read s)) eqn:E2.
    + (* not enough pending: ErrNeedMore *)
      eexists. split; [f_equal; lia|]. split; [reflexivity|lia].
    + (* n bytes are readable already, or n is negative *)
      destruct (n <? 0); eexists; (split; [f_equal; lia|]; split; [reflexivity|lia]).
Qed.

Lemma tdata_spec s n V : t_read s ++ t_pend s = V -> 0 <= n <= zlen (t_read s) -> tdata s n = Some (ztake n V).
Proof.
  intros <- H. unfold tdata. replace ((0 <=? n) && (n <=? zlen (t_read s))) with true by lia.
  rewrite ztake_app_l by lia. reflexivity.
Qed.

Lemma tconsume_spec s k : 0 <= k <= zlen (t_read s) ->
  t_read (tconsume s k) = zdrop k (t_read s) /\ t_pend (tconsume s k) = t_pend s.
Proof.
  intros Hk. unfold tconsume. cbn [tfstep fst t_read t_pend].
  replace (clamp k 0 (zlen (t_read s))) with k by (unfold clamp; lia). auto.
Qed.

Lemma tconsume_stream s k : 0 <= k <= zlen (t_read s) ->
  t_read (tconsume s k) ++ t_pend (tconsume s k) = zdrop k (t_read s ++ t_pend s).
Proof. intros Hk. destruct (tconsume_spec s k Hk) as [-> ->]. rewrite zdrop_app_l by lia. reflexivity. Qed.

(* maxMessageSize is a Go int, hence below 2^63: that lets the decoder's signed test of the length agree with the
   parser's unsigned one (toobig_prefix) *)
Definition cinv (c : codec) : Prop :=
  (c_reset c = true -> 0 <= c_flen c <= zlen (t_read (c_src c))) /\ 0 <= c_max c < WsFrame.two63.

Lemma reset_spec c : cinv c ->
  let c1 := reset_decode c in
  c_reset c1 = false /\ c_max c1 = c_max c /\ t_read (c_src c1) ++ t_pend (c_src c1) = unread c.
Proof.
  intros [Hr Hm]. unfold reset_decode, unread.
  destruct (c_reset c) eqn:E; cbn [c_reset c_max c_src].
  - rewrite (tconsume_stream (c_src c) (c_flen c) (Hr eq_refl)). auto.
  - rewrite zdrop_nonpos by lia. auto.
Qed.

Lemma sp_ext_cases V : sp_ext V = 0 \/ sp_ext V = 2 \/ sp_ext V = 8.
Proof. unfold sp_ext. destruct (sp_l7 V =? 127); [auto|]. destruct (sp_l7 V =? 126); auto. Qed.

Lemma sp_total_range V : 2 + sp_ext V + sp_plen V <= sp_total V <= 6 + sp_ext V + sp_plen V.
Proof. unfold sp_total. destruct (sp_masked V); lia. Qed.

Lemma len7_prefix V n : 2 <= n -> len7 (ztake n V) = sp_l7 V.
Proof.
  intros Hn. unfold len7, byte_at, sp_l7. rewrite nth_ztake by lia. apply land127.
Qed.

Lemma ext_prefix V n : 2 <= n -> ext_len_bytes (ztake n V) = sp_ext V.
Proof. intros Hn. unfold ext_len_bytes, sp_ext. rewrite len7_prefix by lia. reflexivity. Qed.

Section Prefix.
Variable V : list Z.
Hypothesis HV : bytes V.

Lemma masked_prefix n : 2 <= n -> is_masked (ztake n V) = sp_masked V.
Proof.
  intros Hn. unfold is_masked, byte_at, sp_masked. rewrite nth_ztake by lia.
  change ws_bitIsMasked with 128. apply land128. apply bytes_nth. exact HV.
Qed.

Lemma be_zsub_bound a b : 0 <= a <= b -> 0 <= be (zsub a b V) < 256 ^ (b - a).
Proof.
  intros Hab. pose proof (be_bound (zsub a b V) (bytes_zsub a b V HV)) as Hbd.
  assert (Hl : zlen (zsub a b V) <= b - a) by (apply zlen_ztake_le; lia).
  assert (256 ^ zlen (zsub a b V) <= 256 ^ (b - a)) by (apply Z.pow_le_mono_r; lia). lia.
Qed.

Lemma sp_plen_class_bound : 0 <= sp_plen V < (if sp_l7 V =? 127 then 2 * WsFrame.two63 else 65536).
Proof.
  unfold sp_plen. destruct (sp_l7 V =? 127) eqn:E1; [exact (be_zsub_bound 2 10 ltac:(lia))|].
  destruct (sp_l7 V =? 126) eqn:E2; [exact (be_zsub_bound 2 4 ltac:(lia))|].
  unfold sp_l7 in *. pose proof (Z.mod_pos_bound (nth 1 V 0) 128 ltac:(lia)). lia.
Qed.

Lemma sp_plen_u64_bound : 0 <= sp_plen V < 2 * WsFrame.two63.
Proof. pose proof sp_plen_class_bound as H. unfold WsFrame.two63 in *. destruct (sp_l7 V =? 127); lia. Qed.

Lemma plen_prefix n : 2 + sp_ext V <= n -> payload_length (ztake n V) = int_of_u64 (sp_plen V).
Proof.
  intros Hn. pose proof sp_plen_class_bound as Hr. pose proof (sp_ext_cases V) as He.
  unfold payload_length. rewrite len7_prefix by lia. unfold sp_ext in Hn.
  destruct (sp_l7 V =? 127) eqn:E1.
  - unfold sp_plen. rewrite E1, zsub_ztake by lia. reflexivity.
  - (* below 2^16, where the conversion changes nothing *)
    unfold int_of_u64. replace (sp_plen V >=? WsFrame.two63) with false by (unfold WsFrame.two63; lia).
    unfold sp_plen. rewrite E1. destruct (sp_l7 V =? 126); [rewrite zsub_ztake by lia|]; reflexivity.
Qed.

(* the decoder tests the length as a signed int64, the parser the unsigned value *)
Lemma toobig_prefix n max : 2 + sp_ext V <= n -> 0 <= max < WsFrame.two63 ->
  ((payload_length (ztake n V) <? 0) || (payload_length (ztake n V) >? max)) = (sp_plen V >? max) /\
  ((sp_plen V >? max) = false -> payload_length (ztake n V) = sp_plen V).
Proof.
  intros Hn Hm. pose proof sp_plen_u64_bound as Hr. rewrite (plen_prefix n Hn). unfold int_of_u64.
  destruct (sp_plen V >=? WsFrame.two63) eqn:E; split; lia.
Qed.

End Prefix.

Theorem decode_spec c c' r :
  cinv c -> bytes (unread c) -> decode c = (c', r) ->
  cinv c' /\ c_max c' = c_max c /\
  match parse1 (c_max c) (unread c) with
  | PNeedMore => r = DNeedMore /\ unread c' = unread c
  | PTooBig => r = DTooBig /\ unread c' = unread c
  | PFrame raw rest => r = DFrame raw /\ unread c' = rest
  end.
Proof.
  intros Hc HVb Hd. destruct (reset_spec c Hc) as (Hr1 & Hm1 & HV1).
  destruct Hc as [_ Hmax].
  unfold decode in Hd. set (c1 := reset_decode c) in *. set (V := unread c) in *.
  unfold parse1. fold V.
  pose proof (sp_ext_cases V) as Hext.
  (* Decode is four PrepareRead stages (two header bytes, extended length, mask, payload) where the parser has one test
     for the last two; a stage that stops with verdict d leaves the same stream and reset = false *)
  assert (Hstay : forall s d, t_read s ++ t_pend s = V -> (with_src c1 s, d) = (c', r) ->
            cinv c' /\ c_max c' = c_max c /\ r = d /\ unread c' = V).
  { intros s d Hs E. inversion E; subst c' r. unfold cinv, unread, with_src; cbn [c_reset c_flen c_src c_max].
    rewrite Hr1, Hm1, zdrop_nonpos by lia. split; [split; [discriminate|exact Hmax]|]. auto. }
  change ws_frameHeaderLength with 2 in Hd. change ws_frameMaskLength with 4 in Hd.
  destruct (tprep_spec (c_src c1) 2 V HV1) as (s1 & E1 & HVs1 & Hlen1). rewrite E1 in Hd.
  destruct (zlen V <? 2) eqn:L1; cbn [negb] in Hd.
  { exact (Hstay _ _ HVs1 Hd). }
  rewrite (tdata_spec s1 2 V HVs1), (ext_prefix V 2) in Hd by lia.
  destruct (tprep_spec s1 (2 + sp_ext V) V HVs1) as (s2 & E2 & HVs2 & Hlen2). rewrite E2 in Hd.
  destruct (zlen V <? 2 + sp_ext V) eqn:L2; cbn [negb] in Hd.
  { exact (Hstay _ _ HVs2 Hd). }
  rewrite (tdata_spec s2 (2 + sp_ext V) V HVs2) in Hd by lia.
  destruct (toobig_prefix V HVb (2 + sp_ext V) (c_max c) ltac:(lia) Hmax) as [Htb Hpl].
  rewrite Hm1, Htb in Hd.
  destruct (sp_plen V >? c_max c) eqn:Ebig.
  { exact (Hstay _ _ HVs2 Hd). }
  rewrite (Hpl eq_refl), (masked_prefix V HVb (2 + sp_ext V)) in Hd by lia.
  set (n3 := if sp_masked V then 2 + sp_ext V + 4 else 2 + sp_ext V) in *.
  assert (Htot : sp_total V = n3 + sp_plen V) by (unfold sp_total, n3; destruct (sp_masked V); lia).
  pose proof (sp_total_range V) as Htot0.
  destruct (tprep_spec s2 n3 V HVs2) as (s3 & E3 & HVs3 & _). rewrite E3 in Hd.
  destruct (zlen V <? n3) eqn:L3; cbn [negb] in Hd.
  { replace (zlen V <? sp_total V) with true by lia. exact (Hstay _ _ HVs3 Hd). }
  rewrite <- Htot in Hd.
  destruct (tprep_spec s3 (sp_total V) V HVs3) as (s4 & E4 & HVs4 & Hlen4). rewrite E4 in Hd.
  destruct (zlen V <? sp_total V) eqn:L4; cbn [negb] in Hd.
  { exact (Hstay (treserve s4 (sp_plen V)) _ HVs4 Hd). }
  rewrite (tdata_spec s4 (sp_total V) V HVs4) in Hd by lia.
  inversion Hd; subst; clear Hd.
  assert (Hzl : zlen (ztake (sp_total V) V) = sp_total V) by (apply zlen_ztake; lia).
  split.
  - unfold cinv; cbn [c_reset c_flen c_src c_max]. split; [intros _; rewrite Hzl; lia|].
    exact Hmax.
  - split; [reflexivity|]. split; [reflexivity|].
    unfold unread; cbn [c_reset c_flen c_src]. rewrite Hzl. rewrite HVs4. reflexivity.
Qed.

Lemma feed_spec c w : cinv c -> cinv (feed c w) /\ unread (feed c w) = unread c ++ w /\ c_max (feed c w) = c_max c.
Proof.
  intros [Hr Hm]. unfold feed, with_src, unread, cinv; cbn [c_reset c_flen c_src c_max t_read t_pend].
  split; [split; assumption|]. split; [|reflexivity].
  apply zdrop_stream_app. destruct (c_reset c); [apply Hr; reflexivity|apply zlen_nonneg].
Qed.

Lemma parse1_bounded max V raw rest : bytes V -> parse1 max V = PFrame raw rest ->
  sp_plen V <= max /\ zlen raw = sp_total V /\ zlen raw <= max + 14 /\ raw ++ rest = V.
Proof.
  intros Hb. unfold parse1.
  destruct (zlen V <? 2) eqn:E1; [discriminate|]. destruct (zlen V <? 2 + sp_ext V) eqn:E2; [discriminate|].
  destruct (sp_plen V >? max) eqn:E3; [discriminate|]. destruct (zlen V <? sp_total V) eqn:E4; [discriminate|].
  intros H; inversion H; subst; clear H.
  pose proof (sp_ext_cases V) as He. pose proof (sp_plen_u64_bound V Hb) as Hp. pose proof (sp_total_range V) as Ht.
  split; [lia|]. split; [apply zlen_ztake; lia|]. split; [rewrite zlen_ztake by lia; lia|]. apply ztake_zdrop_split.
Qed.

Lemma parse1_bytes max V raw rest : bytes V -> parse1 max V = PFrame raw rest -> bytes rest.
Proof.
  intros Hb Hp. destruct (parse1_bounded _ _ _ _ Hb Hp) as (_ & _ & _ & <-). exact (proj2 (proj1 (Forall_app _ _ _) Hb)).
Qed.

Lemma parse1_decided max V w :
  match parse1 max V with
  | PNeedMore => True
  | PTooBig => parse1 max (V ++ w) = PTooBig
  | PFrame raw rest => parse1 max (V ++ w) = PFrame raw (rest ++ w)
  end.
Proof.
  unfold parse1. pose proof (zlen_nonneg w) as Hw.
  destruct (zlen V <? 2) eqn:E1; [exact I|].
  assert (Hb1 : nth 1 (V ++ w) 0 = nth 1 V 0) by (apply app_nth1; unfold zlen in E1; lia).
  assert (Hl7 : sp_l7 (V ++ w) = sp_l7 V) by (unfold sp_l7; rewrite Hb1; reflexivity).
  assert (Hm : sp_masked (V ++ w) = sp_masked V) by (unfold sp_masked; rewrite Hb1; reflexivity).
  assert (He : sp_ext (V ++ w) = sp_ext V) by (unfold sp_ext; rewrite Hl7; reflexivity).
  destruct (zlen V <? 2 + sp_ext V) eqn:E2; [exact I|].
  assert (Hp : sp_plen (V ++ w) = sp_plen V).
  { unfold sp_plen. rewrite Hl7. unfold sp_ext in E2.
    destruct (sp_l7 V =? 127) eqn:A1; [rewrite zsub_app_l by lia; reflexivity|].
    destruct (sp_l7 V =? 126) eqn:A2; [rewrite zsub_app_l by lia; reflexivity|reflexivity]. }
  assert (Ht : sp_total (V ++ w) = sp_total V) by (unfold sp_total; rewrite He, Hm, Hp; reflexivity).
  rewrite zlen_app, He, Hp, Ht.
  replace (zlen V + zlen w <? 2) with false by lia.
  replace (zlen V + zlen w <? 2 + sp_ext V) with false by lia.
  destruct (sp_plen V >? max); [reflexivity|].
  destruct (zlen V <? sp_total V) eqn:E4; [exact I|].
  replace (zlen V + zlen w <? sp_total V) with false by lia.
  rewrite ztake_app_l by lia. rewrite zdrop_app_l by lia. reflexivity.
Qed.

Lemma parse1_app max V w raw rest :
  parse1 max V = PFrame raw rest -> parse1 max (V ++ w) = PFrame raw (rest ++ w).
Proof. intros H. pose proof (parse1_decided max V w) as D. rewrite H in D. exact D. Qed.

Inductive cop : Type := CFeed (w : list Z) | CDecode.

Fixpoint crun (c : codec) (ops : list cop) : codec * list (list Z) :=
  match ops with
  | [] => (c, [])
  | CFeed w :: rest => crun (feed c w) rest
  | CDecode :: rest =>
      let '(c1, r) := decode c in
      let '(c2, fs) := crun c1 rest in
      (c2, match r with DFrame f => f :: fs | _ => fs end)
  end.

Definition fed (ops : list cop) : list Z := concat (map (fun o => match o with CFeed w => w | CDecode => [] end) ops).
Definition feeds_ok (ops : list cop) : Prop := Forall (fun o => match o with CFeed w => bytes w | CDecode => True end) ops.

Lemma fed_feed w ops : fed (CFeed w :: ops) = w ++ fed ops.
Proof. reflexivity. Qed.

Lemma fed_decode ops : fed (CDecode :: ops) = fed ops.
Proof. reflexivity. Qed.

Inductive pseq (max : Z) : list (list Z) -> list Z -> list Z -> Prop :=
| pseq_nil T : pseq max [] T T
| pseq_cons f fs T rest U : parse1 max T = PFrame f rest -> pseq max fs rest U -> pseq max (f :: fs) T U.

Lemma pseq_app max fs1 fs2 T U W : pseq max fs1 T U -> pseq max fs2 U W -> pseq max (fs1 ++ fs2) T W.
Proof.
  induction 1 as [T|f0 fs T r U Hp Hs IH]; intros H2; cbn; [exact H2|].
  econstructor; [exact Hp|]. apply IH. exact H2.
Qed.

(* pseq_snoc, pseq_feed and pseq_concat are used by no proof; pseq_concat states nothing (its conclusion is True) *)
Lemma pseq_snoc max fs T U f rest : pseq max fs T U -> parse1 max U = PFrame f rest -> pseq max (fs ++ [f]) T rest.
Proof. intros Hs Hf. apply (pseq_app _ _ _ _ _ _ Hs). econstructor; [exact Hf|constructor]. Qed.

Lemma pseq_feed max fs T U w : pseq max fs T U -> pseq max fs (T ++ w) (U ++ w).
Proof.
  induction 1 as [T|f0 fs T r U Hp Hs IH]; [constructor|].
  econstructor; [apply parse1_app; exact Hp|exact IH].
Qed.

Lemma pseq_concat max fs T U : (forall V, bytes V -> True) -> pseq max fs T U -> True.
Proof. auto. Qed.

Lemma be_bytes_len k n : zlen (be_bytes k n) = Z.of_nat k.
Proof.
  revert n. induction k as [|k IH]; intros n; [reflexivity|].
  cbn [be_bytes]. rewrite zlen_app, IH, zlen_cons. cbn. lia.
Qed.

Lemma be_be_bytes k n : 0 <= n < 256 ^ Z.of_nat k -> be (be_bytes k n) = n.
Proof.
  revert n. induction k as [|k IH]; intros n Hn.
  - cbn in *. lia.
  - cbn [be_bytes]. rewrite be_app. rewrite IH.
    + pose proof (Z.div_mod n 256 ltac:(lia)). lia.
    + rewrite Nat2Z.inj_succ, Z.pow_succ_r in Hn by lia.
      split; [apply Z.div_pos; lia|]. apply Z.div_lt_upper_bound; lia.
Qed.

Lemma xor_mask_aux_len k key b : zlen (xor_mask_aux k key b) = zlen b.
Proof.
  unfold zlen. f_equal. revert k. induction b as [|x r IH]; intros k; [reflexivity|].
  cbn [xor_mask_aux]. destruct k as [|k0 k']; [destruct key as [|k0 k']|]; cbn [length]; rewrite ?IH; reflexivity.
Qed.

Lemma xor_mask_len key b : zlen (xor_mask key b) = zlen b.
Proof. apply xor_mask_aux_len. Qed.

Lemma xor_mask_aux_invol k key b : xor_mask_aux k key (xor_mask_aux k key b) = b.
Proof.
  assert (Hx : forall x k0, Z.lxor (Z.lxor x k0) k0 = x)
    by (intros; rewrite Z.lxor_assoc, Z.lxor_nilpotent, Z.lxor_0_r; reflexivity).
  revert k. induction b as [|x r IH]; intros k; [reflexivity|].
  cbn [xor_mask_aux]. destruct k as [|k0 k'].
  - (* the key is used up and starts again *)
    destruct key as [|k0 k']; [reflexivity|]. cbn [xor_mask_aux]. rewrite IH, Hx. reflexivity.
  - cbn [xor_mask_aux]. rewrite IH, Hx. reflexivity.
Qed.

Lemma length_field_spec n : 0 <= n < WsFrame.two63 ->
  let '(l7, ext) := length_field n in
  0 <= l7 < 128 /\
  ((l7 = 127 /\ zlen ext = 8 /\ be ext = n /\ 65535 < n) \/ (l7 = 126 /\ zlen ext = 2 /\ be ext = n /\ 125 < n <= 65535) \/
   (l7 = n /\ ext = [] /\ n <= 125)).
Proof.
  intros Hn. unfold length_field.
  destruct (n >? 65535) eqn:E1; [|destruct (n >? 125) eqn:E2].
  - split; [lia|]. left. repeat split; try lia. apply be_be_bytes. unfold WsFrame.two63 in Hn. cbn. lia.
  - split; [lia|]. right; left. repeat split; try lia. apply be_be_bytes. cbn. lia.
  - split; [lia|]. right; right. repeat split; lia.
Qed.

Lemma zsub_cons2 {A} (x y : A) l k : 0 <= k -> zsub 2 (2 + k) (x :: y :: l) = ztake k l.
Proof. intros Hk. unfold zsub, zdrop. replace (2 + k - 2) with k by lia. reflexivity. Qed.

Lemma build_frame_fields fin rsv op masked key payload rest :
  zlen payload < WsFrame.two63 -> (masked = true -> zlen key = 4) ->
  let F := build_frame fin rsv op masked key payload in
  let V := F ++ rest in
  sp_masked V = masked /\ sp_plen V = zlen payload /\ sp_total V = zlen F /\
  (if sp_l7 V =? 127 then 65535 <? sp_plen V else if sp_l7 V =? 126 then 125 <? sp_plen V else true) = true /\
  nth 0 V 0 = (if fin then 128 else 0) + rsv * 16 + Z.land op 15 /\
  exists hdr, zlen hdr = 2 + sp_ext V /\ F = hdr ++ (if masked then key ++ xor_mask key payload else payload).
Proof.
  intros Hlen Hkey F V. unfold V, F, build_frame. clear F V.
  pose proof (zlen_nonneg payload) as Hp0.
  pose proof (length_field_spec (zlen payload) ltac:(lia)) as Hlf.
  destruct (length_field (zlen payload)) as [l7 ext]. destruct Hlf as [Hl7 Hcases].
  set (b0 := (if fin then 128 else 0) + rsv * 16 + Z.land op 15).
  set (b1 := (if masked then 128 else 0) + l7).
  set (body := if masked then key ++ xor_mask key payload else payload).
  assert (Hbody : zlen body = (if masked then 4 else 0) + zlen payload).
  { unfold body. destruct masked; [rewrite zlen_app, xor_mask_len, (Hkey eq_refl); lia|lia]. }
  set (V := (b0 :: b1 :: ext ++ body) ++ rest).
  (* the second byte splits again into the 7-bit length and the mask bit *)
  assert (Hn1 : nth 1 V 0 = b1) by reflexivity.
  assert (Hsl7 : sp_l7 V = l7).
  { unfold sp_l7. rewrite Hn1. unfold b1. destruct masked.
    - replace (128 + l7) with (l7 + 1 * 128) by lia. rewrite Z.mod_add by lia. apply Z.mod_small; lia.
    - apply Z.mod_small; lia. }
  assert (Hsm : sp_masked V = masked) by (unfold sp_masked; rewrite Hn1; unfold b1; destruct masked; lia).
  pose proof (zlen_nonneg ext) as He0.
  assert (Hext : sp_ext V = zlen ext /\ sp_plen V = zlen payload /\
                 (if l7 =? 127 then 65535 <? zlen payload else if l7 =? 126 then 125 <? zlen payload else true) = true).
  { unfold sp_ext, sp_plen. rewrite Hsl7.
    (* in each length class the extension bytes are read back from behind the two header bytes *)
    assert (Hz : forall k, k = zlen ext -> zsub 2 (2 + k) V = ext).
    { intros k ->. unfold V. cbn [app]. rewrite zsub_cons2 by lia. rewrite <- app_assoc. rewrite ztake_app_l by lia.
      apply ztake_all; lia. }
    destruct Hcases as [(-> & H1 & H2 & H3)|[(-> & H1 & H2 & H3)|(-> & -> & H3)]].
    - change (127 =? 127) with true. cbv iota. change 10 with (2 + 8). rewrite (Hz 8) by lia.
      split; [lia|]. split; [exact H2|lia].
    - change (126 =? 127) with false. change (126 =? 126) with true. cbv iota.
      change 4 with (2 + 2). rewrite (Hz 2) by lia. split; [lia|]. split; [exact H2|lia].
    - replace (zlen payload =? 127) with false by lia. replace (zlen payload =? 126) with false by lia.
      repeat split; reflexivity. }
  destruct Hext as (Hse & Hsp & Hshort).
  assert (HzF : zlen (b0 :: b1 :: ext ++ body) = 2 + zlen ext + zlen body).
  { unfold zlen; cbn [length]. rewrite app_length. lia. }
  split; [exact Hsm|]. split; [exact Hsp|].
  split; [unfold sp_total; rewrite Hse, Hsm, Hsp, HzF, Hbody; destruct masked; lia|].
  split; [rewrite Hsl7, Hsp; exact Hshort|]. split; [reflexivity|].
  exists (b0 :: b1 :: ext). split; [rewrite Hse; unfold zlen; cbn [length]; lia|reflexivity].
Qed.

(* what of build_frame_fields the parser's length tests look at *)
Lemma build_frame_lengths fin rsv op masked key payload rest :
  zlen payload < WsFrame.two63 -> (masked = true -> zlen key = 4) ->
  let F := build_frame fin rsv op masked key payload in
  sp_plen (F ++ rest) = zlen payload /\ sp_total (F ++ rest) = zlen F /\ 2 + sp_ext (F ++ rest) <= zlen F.
Proof.
  intros Hlen Hkey F.
  destruct (build_frame_fields fin rsv op masked key payload rest Hlen Hkey) as (_ & Hsp & Hst & _).
  fold F in Hsp, Hst. split; [exact Hsp|]. split; [exact Hst|].
  pose proof (sp_total_range (F ++ rest)) as Ht. pose proof (zlen_nonneg payload). lia.
Qed.

Theorem roundtrip max fin rsv op masked key payload rest :
  zlen payload <= max -> max < WsFrame.two63 -> (masked = true -> zlen key = 4) ->
  let F := build_frame fin rsv op masked key payload in
  parse1 max (F ++ rest) = PFrame F rest.
Proof.
  intros Hlen Hmax Hkey F.
  destruct (build_frame_lengths fin rsv op masked key payload rest ltac:(lia) Hkey) as (Hsp & Hst & HzF).
  fold F in Hsp, Hst, HzF. pose proof (zlen_nonneg rest) as Hr0.
  unfold parse1. rewrite Hsp, Hst, zlen_app.
  replace (zlen F + zlen rest <? 2) with false by (pose proof (sp_ext_cases (F ++ rest)); lia).
  replace (zlen F + zlen rest <? 2 + sp_ext (F ++ rest)) with false by lia.
  replace (zlen payload >? max) with false by lia.
  replace (zlen F + zlen rest <? zlen F) with false by lia.
  rewrite ztake_app_exact, zdrop_app_exact. reflexivity.
Qed.
