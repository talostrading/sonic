(* C01, at most once over whole histories.  For a callback identifier c that the script uses only for
   read/write/accept/datagram operations (no timer, no posted handler), and as long as no operation is started on a
   direction that already has one deferred in flight (the ghost flag l_overlap records a breach):
       callbacks of c run so far + operations holding c that are registered with the poller + invocations of c waiting on the
       work list   <=   operations started with c. *)
From Sonic Require Import Base.Prelude Model.Loop Proofs.LoopMachine Proofs.LoopProofs.
Local Open Scope Z_scope.

Section Once.
Variable c : Z.
Hypothesis c_nonzero : c <> 0.            (* a fresh timer's callback slot reads 0 *)

Definition is_cb (e : lev) : bool := match e with LCb cb _ _ _ => cb =? c | _ => false end.
Definition is_st (e : lev) : bool := match e with LStart cb _ _ _ _ => cb =? c | _ => false end.
Fixpoint cntl (f : lev -> bool) (l : list lev) : Z :=
  match l with [] => 0 | e :: r => (if f e then 1 else 0) + cntl f r end.
Definition cbs (s : loop) : Z := cntl is_cb (l_log s).
Definition starts (s : loop) : Z := cntl is_st (l_log s).

(* the terms of the inequality: [pendc] the operations holding c that are registered with the poller, [stackc] the
   invocations of c on the work list *)
Definition hc (p : opst) : Z := if op_cb p =? c then 1 else 0.
Definition hold (r : option opst) : Z := match r with Some p => hc p | None => 0 end.
Definition pc (o : obj) : Z := (if o_evR o then hold (o_rd o) else 0) + (if o_evW o then hold (o_wr o) else 0).
Definition pendc (s : loop) : Z := sumf pc (l_objs s).

Fixpoint stackc (l : list item) : Z :=
  match l with
  | [] => 0
  | IInvoke cb _ _ _ :: r => (if cb =? c then 1 else 0) + stackc r
  | _ :: r => stackc r
  end.

Lemma hc_range p : 0 <= hc p <= 1.  Proof. unfold hc. destruct (op_cb p =? c); lia. Qed.
Lemma hold_range r : 0 <= hold r <= 1.  Proof. destruct r; cbn; [apply hc_range|lia]. Qed.
Lemma pc_nonneg o : 0 <= pc o.
Proof. unfold pc. pose proof (hold_range (o_rd o)). pose proof (hold_range (o_wr o)). destruct (o_evR o), (o_evW o); lia. Qed.
Lemma stackc_app a b : stackc (a ++ b) = stackc a + stackc b.
Proof. induction a as [|x a IH]; cbn [app stackc]; [lia|]. destruct x; try exact IH. rewrite IH. lia. Qed.
Lemma stackc_nonneg l : 0 <= stackc l.
Proof. induction l as [|x l IH]; cbn [stackc]; [lia|]. destruct x; try exact IH. destruct (cb =? c); lia. Qed.
Lemma stackc_acts l : stackc (map IAct l) = 0.
Proof. induction l; cbn; auto. Qed.

Lemma pendc_set_obj s i o' :
  pendc (set_obj s i o') = pendc s - (match lookup i (l_objs s) with Some o => pc o | None => 0 end) + pc o'.
Proof. unfold pendc, set_obj; cbn. rewrite sum_update. lia. Qed.

(* what storing an object and moving the pending counter leave alone; [same_acc] below is the same for a timer
   operation, LoopDepth.frame for C14 *)
Definition keep (s s' : loop) : Prop :=
  l_log s' = l_log s /\ l_overlap s' = l_overlap s /\ l_tmrs s' = l_tmrs s /\ l_posts s' = l_posts s /\ l_progs s' = l_progs s.
Lemma keep_refl s : keep s s.  Proof. unfold keep; auto. Qed.
Lemma keep_log {s s'} : keep s s' -> l_log s' = l_log s.  Proof. intros K. exact (proj1 K). Qed.

(* [plain] is LoopMachine's [opt_invoke] *)
Definition plain (items : list item) : Prop := items = [] \/ exists cb e n w, items = [IInvoke cb e n w].

Lemma pendc_put {s i o0 o' d fo} : lookup i (l_objs s) = Some o0 -> pendc (put s i o' d fo) = pendc s - pc o0 + pc o'.
Proof. intros Hl. change (pendc (put s i o' d fo)) with (pendc (set_obj s i o')). rewrite pendc_set_obj, Hl. reflexivity. Qed.

Lemma keep_put s i o' d fo : keep s (put s i o' d fo).
Proof. unfold keep; cbn; auto. Qed.

Definition pcd (w : bool) (o : obj) : Z := if ev w o then hold (slot w o) else 0.
Lemma pc_dir w o : pc o = pcd w o + pcd (negb w) o.
Proof. unfold pc, pcd, ev, slot. destruct w; cbn [negb]; lia. Qed.
Lemma pc_clr w o : pc (clr w o) = pc o - pcd w o.
Proof. rewrite (pc_dir w o), (pc_dir w (clr w o)). unfold pcd. destruct w; cbn; lia. Qed.

(* the key step: however the operation ends - one invocation on the work list, one registered operation, or (out of
   fuel) nothing - it is counted once *)
Lemma ends_pot {w cb wr o o' d fo items} :
  ends w cb wr o o' d fo items -> ev w o = false -> pc o' + stackc items <= pc o + (if cb =? c then 1 else 0).
Proof.
  intros H Hb.
  assert (P0 : pcd w o = 0) by (unfold pcd; rewrite Hb; reflexivity).
  assert (P2 : pcd (negb w) o' = pcd (negb w) o).
  { unfold pcd. rewrite (so_ev (ends_other H)), (so_slot (ends_other H)). reflexivity. }
  enough (pcd w o' + stackc items <= (if cb =? c then 1 else 0)) by (rewrite (pc_dir w o), (pc_dir w o'); lia).
  unfold pcd. destruct H as [o1 e n V Hev Hreg|o1 p' V Hc Hev Hreg Hs Hcb|o1 U]; cbn [stackc].
  - rewrite Hev, Hb. lia.
  - rewrite Hev, Hs. cbn [hold]. unfold hc. rewrite Hcb. lia.
  - rewrite (su_ev w U), Hb. destruct (cb =? c); lia.
Qed.

Lemma fires_pot {w o o' d fo items} :
  fires w o o' d fo items -> ev w o = false -> pc o' + stackc items <= pc o + hold (slot w o).
Proof.
  intros H Hb.
  assert (Hd : pc (dereg w o) = pc o /\ ev w (dereg w o) = false) by (destruct w; split; first [reflexivity|exact Hb]).
  destruct Hd as [Hpc Hev].
  destruct H as [Hs|p wr o1 d1 fo1 items1 Hs B]; rewrite Hs; cbn [hold].
  - rewrite Hpc. cbn [stackc]. lia.
  - pose proof (ends_pot B Hev) as Hle. rewrite Hpc in Hle. exact Hle.
Qed.

Lemma fire_pot {s i w o o' d fo items} :
  lookup i (l_objs s) = Some o -> ev w o = true -> fires w (clr w o) o' d fo items ->
  pendc (put s i o' (d - 1) fo) + stackc items <= pendc s.
Proof.
  intros Hl Hb B.
  assert (Hc : ev w (clr w o) = false /\ slot w (clr w o) = slot w o) by (destruct w; split; reflexivity).
  pose proof (fires_pot B (proj1 Hc)) as Hle. rewrite (proj2 Hc), pc_clr in Hle. unfold pcd in Hle. rewrite Hb in Hle.
  rewrite (pendc_put Hl). lia.
Qed.

Definition act_ok (a : action) : Prop :=
  match a with ASched _ _ _ cb => cb <> c | APost cb => cb <> c | _ => True end.
Definition item_ok (it : item) : Prop :=
  match it with
  | IAct a => act_ok a
  | ILog e => is_cb e = false /\ is_st e = false
  | _ => True
  end.
Definition side (s : loop) : Prop :=
  Forall (fun t => t_cb (snd t) <> c) (l_tmrs s) /\ ~ In c (l_posts s) /\ Forall (fun p => Forall act_ok (snd p)) (l_progs s).

Lemma tm_lookup (l : list (Z * tmr)) i t : Forall (fun t => t_cb (snd t) <> c) l -> lookup i l = Some t -> t_cb t <> c.
Proof. apply (Forall_lookup (fun t => t_cb t <> c)). Qed.
Lemma tm_update (l : list (Z * tmr)) i t : Forall (fun t => t_cb (snd t) <> c) l -> t_cb t <> c -> Forall (fun t => t_cb (snd t) <> c) (update i t l).
Proof. apply (Forall_update (fun t => t_cb t <> c)). Qed.
Lemma progs_lookup_ok (l : list (Z * list action)) cb p : Forall (fun q => Forall act_ok (snd q)) l -> lookup cb l = Some p -> Forall act_ok p.
Proof. apply (Forall_lookup (Forall act_ok)). Qed.
Lemma progs_update_ok (l : list (Z * list action)) cb p : Forall (fun q => Forall act_ok (snd q)) l -> Forall act_ok p ->
  Forall (fun q => Forall act_ok (snd q)) (update cb p l).
Proof. apply (Forall_update (Forall act_ok)). Qed.
Lemma prog_of_ok s cb : Forall (fun p => Forall act_ok (snd p)) (l_progs s) -> Forall item_ok (map IAct (prog_of s cb)).
Proof.
  intros S3. unfold prog_of. destruct (lookup cb (l_progs s)) eqn:E; [|constructor].
  pose proof (progs_lookup_ok _ _ _ S3 E) as H. clear E. induction l as [|a l IH]; cbn [map]; [constructor|].
  inversion H; subst. constructor; [assumption|apply IH; assumption].
Qed.

(* never decreases along the run, until the contract is breached *)
Definition pot (s : loop) (items : list item) : Z := starts s - cbs s - pendc s - stackc items.

Lemma pot_cons it rest s : pot s (it :: rest) = pot s [it] - stackc rest.
Proof. unfold pot. change (it :: rest) with ([it] ++ rest). rewrite stackc_app. lia. Qed.
Lemma pot_app items rest s : pot s (items ++ rest) = pot s items - stackc rest.
Proof. unfold pot. rewrite stackc_app. lia. Qed.

Lemma pot_tput s i t d items : pot (tput s i t d) items = pot s items.
Proof. reflexivity. Qed.

Lemma plain_ok items : plain items -> Forall item_ok items.
Proof.
  intros [->|(cb & e & n & w & ->)].
  - constructor.
  - repeat constructor.
Qed.

Lemma cbs_add_log s e : cbs (add_log s e) = (if is_cb e then 1 else 0) + cbs s.
Proof. reflexivity. Qed.
Lemma starts_add_log s e : starts (add_log s e) = (if is_st e then 1 else 0) + starts s.
Proof. reflexivity. Qed.

(* the ILog clause of [item_ok], under a name *)
Definition neutral (e : lev) : Prop := is_cb e = false /\ is_st e = false.

Lemma pot_add_log_neutral s e items : neutral e -> pot (add_log s e) items = pot s items.
Proof. intros [A B]. unfold pot. rewrite cbs_add_log, starts_add_log, A, B. reflexivity. Qed.

Lemma keep_pot {s s1 items} : keep s s1 -> pendc s1 + stackc items <= pendc s -> pot s [] <= pot s1 items.
Proof. intros K H. unfold pot, starts, cbs. rewrite (keep_log K). cbn [stackc]. lia. Qed.

Lemma side_tput s i t' d : side s -> t_cb t' <> c -> side (tput s i t' d).
Proof. intros (S1 & S2 & S3) H. unfold side; cbn. split; [apply tm_update; assumption|auto]. Qed.

Lemma cont_ok tail : Forall cont tail -> Forall item_ok tail /\ stackc tail = 0.
Proof.
  induction 1 as [|it tail Hc _ [IH1 IH2]]; [split; [constructor|reflexivity]|].
  destruct it as [a| | | | | | |e| |]; cbn [cont] in Hc; try contradiction; (split; [constructor; [|exact IH1]|exact IH2]);
    try exact I.
  destruct e; try contradiction; split; reflexivity.
Qed.

Lemma note_neutral e : note e -> neutral e.
Proof. destruct e; cbn [note]; try contradiction; split; reflexivity. Qed.

(* What every step does to the inequality: the flag stays and the potential is passed on to what is pushed; or the
   step is the start that breaches the contract. *)
Definition passes (s : loop) (it : item) (r : loop * list item) : Prop :=
  side (fst r) /\ Forall item_ok (snd r) /\
  (l_overlap (fst r) = l_overlap s /\ pot s [it] <= pot (fst r) (snd r) \/
   l_overlap (fst r) = true /\ exists w all i len cb, it = IAct (AStart w all i len cb)).

Lemma pot_passed s it s1 items :
  side s1 -> Forall item_ok items -> l_overlap s1 = l_overlap s -> pot s [it] <= pot s1 items -> passes s it (s1, items).
Proof. unfold passes. auto. Qed.

(* the potential is where it was and only second halves are pushed *)
Lemma pot_nop s it s1 tail :
  side s1 -> l_overlap s1 = l_overlap s -> pot s1 [] = pot s [] -> Forall cont tail -> passes s it (s1, tail).
Proof.
  intros H1 H2 H3 Ht. destruct (cont_ok tail Ht) as [Hok H0]. apply pot_passed; [exact H1|exact Hok|exact H2|].
  pose proof (stackc_nonneg [it]). unfold pot in *. rewrite H0. cbn [stackc] in H3. lia.
Qed.

Lemma passes_pot {s it r} :
  passes s it r ->
  side (fst r) /\ Forall item_ok (snd r) /\ (l_overlap (fst r) = false -> l_overlap s = false /\ pot s [it] <= pot (fst r) (snd r)).
Proof.
  intros (A & B & [[E H]|[E _]]); (split; [exact A|]; split; [exact B|]); intros Hov; [rewrite <- E; auto|congruence].
Qed.

Lemma stackc_posts (l : list Z) : ~ In c l -> stackc (map (fun cb => IInvoke cb xNil 0 false) l) = 0.
Proof.
  induction l as [|x l IH]; intros H; cbn [map stackc]; [reflexivity|].
  assert (Hx : x <> c) by (intros ->; apply H; left; reflexivity).
  apply Z.eqb_neq in Hx. rewrite Hx. rewrite IH; [reflexivity|]. intros Hin; apply H; right; exact Hin.
Qed.

Lemma posts_items_ok (l : list Z) : Forall item_ok (map (fun cb => IInvoke cb xNil 0 false) l).
Proof. induction l as [|x l IH]; cbn [map]; [constructor|constructor; [exact I|exact IH]]. Qed.

Lemma moves_pot s it r : moves s it r -> side s -> item_ok it -> passes s it r.
Proof.
  intros H Hs Hit. pose proof (proj1 Hs) as S1. pose proof (stackc_nonneg [it]) as Hit0.
  induction H as [it tail Ht|it e s' items Hn _ IH|e|w all i len cb o o' d fo items wr Hl B
                 |it w i o o' d fo items tail Hl E B Ht|i o Hl|it i t t' d cb items tail Hl _ Hcb Hwho Hitems Ht
                 |cb|e|cb err n w|w].
  - (* nothing found, nothing ready *) apply pot_nop; first [exact Hs|exact Ht|reflexivity].
  - (* a note in the log *)
    destruct (IH Hit Hit0) as (A & B & C). unfold passes. cbn [fst snd] in *.
    rewrite (pot_add_log_neutral s' e items (note_neutral e Hn)). exact (conj A (conj B C)).
  - (* ILog *) apply pot_nop; [exact Hs|reflexivity|exact (pot_add_log_neutral s e [] Hit)|constructor].
  - (* AStart: the only step that can set the overlap flag *)
    split; [exact Hs|]. split; [apply plain_ok; exact (ends_items B)|].
    cbn [fst snd l_overlap put note_overlap add_log].
    destruct (ev w o) eqn:Hfree; [right; split; [apply orb_true_r|repeat eexists]|left].
    split; [apply orb_false_r|].
    (* the direction was free (Hfree): stashing the operation changes neither the bit nor pc *)
    assert (Hev : forall r, ev w (stash w o r) = false) by (intros r; destruct w; exact Hfree).
    assert (Hpc : forall r, pc (stash w o r) = pc o).
    { intros r. unfold pc, ev, stash in *. destruct w; cbn; rewrite Hfree; reflexivity. }
    (* the end adds at most (cb =? c) to pc + stackc, and the log gained LStart cb: starts grew by as much *)
    pose proof (ends_pot B (Hev _)) as Hle. rewrite Hpc in Hle.
    unfold pot, starts, cbs. rewrite (pendc_put (s := note_overlap (add_log s (LStart cb i w all len)) false) Hl).
    cbn [stackc l_log put note_overlap add_log cntl is_st is_cb]. change (pendc (note_overlap _ _)) with (pendc s). lia.
  - (* an interest fires or is cancelled: the operation moves from the poller to the work list *)
    pose proof (keep_pot (keep_put s i o' (d - 1) fo) (fire_pot Hl E B)) as Hle. destruct (cont_ok tail Ht) as [Hok H0].
    apply pot_passed; [exact Hs|apply Forall_app; split; [exact (plain_ok _ (fires_items B))|exact Hok]|reflexivity|].
    rewrite pot_app, H0. unfold pot in *. cbn [stackc] in *. lia.
  - (* AClose: what the object had registered leaves the potential *)
    apply pot_passed; [exact Hs|constructor|reflexivity|].
    apply (keep_pot (s := s)); [apply keep_put|]. rewrite (pendc_put Hl). change (pc (shut o)) with 0.
    pose proof (pc_nonneg o). cbn [stackc]. lia.
  - (* a timer is stored: the callback it holds or invokes is the timer's or, for ASched, not c either *)
    pose proof (tm_lookup _ _ _ S1 Hl) as Htc.
    assert (Hc : cb <> c) by (destruct Hwho as [->|(rep & ms & ->)]; [exact Htc|exact Hit]).
    assert (Htc' : t_cb t' <> c) by (destruct Hcb as [-> | ->]; assumption).
    assert (Hi : Forall item_ok items /\ stackc items = 0).
    { apply Z.eqb_neq in Hc. destruct Hitems as [-> | ->]; [|cbn [stackc]; rewrite Hc]; split; repeat constructor. }
    destruct (cont_ok tail Ht) as [Hok H0].
    apply pot_passed; [exact (side_tput s i t' d Hs Htc')|apply Forall_app; split; [exact (proj1 Hi)|exact Hok]|reflexivity|].
    rewrite pot_app, pot_tput, H0. unfold pot. rewrite (proj2 Hi). lia.
  - (* APost: the queue gains a handler other than c *)
    apply pot_nop; [|reflexivity|reflexivity|constructor]. destruct Hs as (_ & S2 & S3).
    unfold side; cbn. split; [exact S1|]. split; [|exact S3].
    intros Hin. apply in_app_or in Hin. destruct Hin as [Hin|[Hin|[]]]; [exact (S2 Hin)|exact (Hit Hin)].
  - (* the posted handlers: c is not among them *)
    destruct Hs as (_ & S2 & S3).
    apply pot_passed; [unfold side; cbn; auto|apply posts_items_ok|reflexivity|].
    unfold pot, starts, cbs, pendc. cbn. rewrite (stackc_posts _ S2). lia.
  - (* IInvoke: from the work list into the log; the actions pushed are those of a program *)
    destruct (invoke_items s cb err n w) as (acts & Hsnd & Hacts).
    assert (Hi : Forall item_ok acts /\ stackc acts = 0).
    { destruct Hacts as [->| ->].
      + split; [constructor|reflexivity].
      + split; [apply prog_of_ok; exact (proj2 (proj2 Hs))|apply stackc_acts]. }
    destruct Hi as [Hi1 Hi2].
    rewrite (surjective_pairing (invoke s cb err n w)), Hsnd, invoke_state.
    apply pot_passed; [exact Hs|apply Forall_app; split; [exact Hi1|repeat constructor]|reflexivity|].
    unfold pot, starts, cbs, pendc. rewrite stackc_app, Hi2. cbn [l_log l_objs cntl is_cb is_st stackc]. lia.
  - (* IEnd *) apply pot_nop; [destruct w; exact Hs|destruct w; reflexivity|destruct w; reflexivity|constructor].
Qed.

Definition oinv (s : loop) (stk : list item) : Prop :=
  side s /\ Forall item_ok stk /\ (l_overlap s = false -> 0 <= pot s stk).

Definition final (s : loop) : Prop := side s /\ (l_overlap s = false -> cbs s + pendc s <= starts s).

Lemma oinv_final s stk : oinv s stk -> final s.
Proof.
  intros (A & _ & B). split; [exact A|]. intros H. specialize (B H). unfold pot in B. pose proof (stackc_nonneg stk). lia.
Qed.

Lemma step_pot s it :
  side s -> item_ok it ->
  side (fst (step s it)) /\ Forall item_ok (snd (step s it)) /\
  (l_overlap (fst (step s it)) = false -> l_overlap s = false /\ pot s [it] <= pot (fst (step s it)) (snd (step s it))).
Proof. intros Hs Hit. exact (passes_pot (moves_pot s it _ (step_moves s it) Hs Hit)). Qed.

Theorem exec_once fuel : forall s stk, oinv s stk -> final (exec fuel s stk).
Proof.
  apply (exec_ind oinv final).
  - intros s it rest (Hs & Hok & Hpot). inversion Hok as [|? ? Hit Hrest]; subst.
    destruct (step_pot s it Hs Hit) as (H1 & H2 & H3).
    split; [exact H1|]. split; [apply Forall_app; split; assumption|].
    intros Hov. destruct (H3 Hov) as [Hov0 Hle]. specialize (Hpot Hov0). rewrite pot_cons in Hpot. rewrite pot_app. lia.
  - intros s. apply oinv_final.
  - intros s it rest. exact (oinv_final (out_of_fuel s) (it :: rest)).
Qed.

Definition lop_ok (o : lop) : Prop :=
  match o with LProg _ acts => Forall act_ok acts | LAct a => act_ok a | _ => True end.

Lemma stackc_entries (l : list (Z * Z * Z)) : stackc (map IPollEntry l) = 0.
Proof. induction l; cbn; auto. Qed.
Lemma entries_ok (l : list (Z * Z * Z)) : Forall item_ok (map IPollEntry l).
Proof. induction l as [|x l IH]; cbn [map]; [constructor|constructor; [exact I|exact IH]]. Qed.

Lemma pendc_nonneg s : 0 <= pendc s.
Proof. unfold pendc. induction (l_objs s) as [|[k o] r IH]; cbn [sumf]; [lia|]. pose proof (pc_nonneg o). lia. Qed.

Theorem lstep_final s o : lop_ok o -> final s -> final (lstep s o).
Proof.
  intros Hok Hf. rewrite lstep_eq. cbv zeta.
  (* [final] does not look at the budget, so s may be replaced by refill s *)
  change (final (refill s)) in Hf. revert Hf. generalize (refill s). clear s.
  intros s1 [Hs1 Hle1].
  destruct o; cbn [lop_ok] in Hok.
  - (* LObj: a new object has nothing registered, the one it replaces may have had *)
    split; [exact Hs1|]. intros Hov. specialize (Hle1 Hov).
    change (cbs (set_obj s1 i (new_obj k))) with (cbs s1). change (starts (set_obj s1 i (new_obj k))) with (starts s1).
    rewrite pendc_set_obj. assert (Hn : pc (new_obj k) = 0) by reflexivity. rewrite Hn.
    destruct (lookup i (l_objs s1)) as [o|]; [pose proof (pc_nonneg o)|]; lia.
  - (* LTimer *)
    destruct Hs1 as (S1 & S2 & S3). split; [|exact Hle1].
    unfold side; cbn. split; [apply tm_update; [exact S1|cbn; intros E; apply c_nonzero; symmetry; exact E]|auto].
  - (* LProg *)
    destruct Hs1 as (S1 & S2 & S3). split; [|exact Hle1].
    unfold side; cbn. split; [exact S1|]. split; [exact S2|apply progs_update_ok; assumption].
  - (* LDepth *) split; [exact Hs1|exact Hle1].
  - (* LPeer *)
    destruct (lookup i (l_objs s1)) as [o|] eqn:Hl; [|split; [exact Hs1|exact Hle1]].
    split; [exact Hs1|]. intros Hov. specialize (Hle1 Hov).
    change (cbs (set_obj s1 i (peer_obj p o))) with (cbs s1). change (starts (set_obj s1 i (peer_obj p o))) with (starts s1).
    rewrite pendc_set_obj, Hl. pose proof (peer_obj_flags p o) as F.
    unfold pc. rewrite (sf_evR F), (sf_evW F), (sf_rd F), (sf_wr F). lia.
  - (* LSleep *) split; [exact Hs1|exact Hle1].
  - (* LPoll *)
    apply exec_once. split; [exact Hs1|]. split; [apply entries_ok|].
    intros Hov. specialize (Hle1 Hov). unfold pot. rewrite stackc_entries. lia.
  - (* LAct *)
    apply exec_once. split; [exact Hs1|]. split; [constructor; [exact Hok|constructor]|].
    intros Hov. specialize (Hle1 Hov). unfold pot. cbn [stackc]. lia.
Qed.

Lemma final_init : final loop_init.
Proof. split; [unfold side; cbn; repeat split; auto; constructor|]. intros _. cbn. lia. Qed.

Theorem lrun_final ops : forall s, Forall lop_ok ops -> final s -> final (lrun s ops).
Proof.
  induction ops as [|o r IH]; intros s Hok H; [exact H|]. inversion Hok; subst.
  apply IH; [assumption|]. apply lstep_final; assumption.
Qed.

Theorem completions_never_exceed_starts ops :
  Forall lop_ok ops ->
  let s := lrun loop_init ops in
  l_overlap s = false -> cbs s + pendc s <= starts s /\ cbs s <= starts s.
Proof.
  intros Hok s Hov. destruct (lrun_final ops loop_init Hok final_init) as [_ H]. fold s in H. specialize (H Hov).
  pose proof (pendc_nonneg s). lia.
Qed.

(* What follows is used by no proof above: facts about [keep], [pot] and [side], and the potential argument read off
   for the functions of the model one by one ([do_action_pot] and [poll_entry_pot] from [moves_pot], the others from
   the object-level equations).  [bit], [reactor] are LoopMachine's [ev], [slot]. *)
Lemma pot_keep s s' items : l_log s' = l_log s -> pot s' items = starts s - cbs s - pendc s' - stackc items.
Proof. intros H. unfold pot, starts, cbs. rewrite H. reflexivity. Qed.

Lemma side_add_log s e : side s -> side (add_log s e).
Proof. intros H; exact H. Qed.

Lemma keep_trans a b d : keep a b -> keep b d -> keep a d.
Proof. unfold keep. intros (A1 & A2 & A3 & A4 & A5) (B1 & B2 & B3 & B4 & B5). repeat split; congruence. Qed.
Lemma keep_set_obj s i o : keep s (set_obj s i o).  Proof. unfold keep; cbn; auto. Qed.
Lemma keep_set_pending s p : keep s (set_pending s p).  Proof. unfold keep; cbn; auto. Qed.

Lemma write_event_pot s i err :
  pendc (fst (write_event s i err)) + stackc (snd (write_event s i err)) <= pendc s /\ keep s (fst (write_event s i err)).
Proof.
  destruct (write_event_writes s i err) as [|o o' d fo items Hl E B]; cbn [fst snd].
  - split; [cbn [stackc]; lia|apply keep_refl].
  - split; [exact (fire_pot Hl E B)|apply keep_put].
Qed.

Lemma write_event_plain s i err : plain (snd (write_event s i err)).
Proof. exact (write_event_items s i err). Qed.

Lemma side_keep s s' : keep s s' -> side s -> side s'.
Proof. intros (_ & _ & A & B & C) (S1 & S2 & S3). unfold side. rewrite A, B, C. auto. Qed.

Lemma timer_unset_keep s i t s1 t1 : timer_unset s i t = (s1, t1) ->
  keep s s1 /\ l_objs s1 = l_objs s /\ t_cb t1 = t_cb t.
Proof. unfold timer_unset. destruct (t_evR t); intros H; inversion H; subst; cbn; repeat split; reflexivity. Qed.

Definition same_acc (s s' : loop) : Prop :=
  l_log s' = l_log s /\ l_overlap s' = l_overlap s /\ l_objs s' = l_objs s /\ l_progs s' = l_progs s.

Lemma sched_once_side s i t ms cb rep :
  side s -> cb <> c -> t_cb t <> c ->
  side (fst (sched_once s i t ms cb rep)) /\ stackc (snd (sched_once s i t ms cb rep)) = 0 /\
  Forall item_ok (snd (sched_once s i t ms cb rep)) /\ same_acc s (fst (sched_once s i t ms cb rep)).
Proof.
  intros Hs Hcb Ht. unfold sched_once. destruct Hs as (S1 & S2 & S3).
  destruct (t_state t =? 0); [destruct (ms <=? 0)|]; cbn [fst snd].
  - apply Z.eqb_neq in Hcb.
    split; [unfold side; cbn; split; [apply tm_update; [exact S1|exact Ht]|auto]|].
    split; [cbn; rewrite Hcb; reflexivity|]. split; [repeat constructor|unfold same_acc; cbn; auto].
  - set (t0 := mktmr _ false _ _ _ _ _). destruct (timer_unset s i t0) as [s1 t1] eqn:Eu.
    destruct (timer_unset_keep _ _ _ _ _ Eu) as ((Klog & Kov & Ktmrs & Kposts & Kprogs) & Kobjs & _). cbn [fst snd].
    split; [unfold side; cbn; rewrite Ktmrs, Kposts, Kprogs; split; [apply tm_update; [exact S1|exact Hcb]|auto]|].
    split; [reflexivity|]. split; [constructor|unfold same_acc; cbn; auto].
  - split; [unfold side; auto|]. split; [reflexivity|]. split; [constructor|unfold same_acc; auto].
Qed.

Lemma do_action_pot s a :
  side s -> act_ok a ->
  side (fst (do_action s a)) /\ Forall item_ok (snd (do_action s a)) /\
  (l_overlap (fst (do_action s a)) = false ->
   l_overlap s = false /\ pot s [] <= pot (fst (do_action s a)) (snd (do_action s a))).
Proof. intros Hs Ha. exact (passes_pot (moves_pot s (IAct a) _ (step_moves s (IAct a)) Hs Ha)). Qed.

Lemma poll_entry_pot s e :
  side s ->
  side (fst (poll_entry s e)) /\ Forall item_ok (snd (poll_entry s e)) /\
  l_overlap (fst (poll_entry s e)) = l_overlap s /\ pot s [] <= pot (fst (poll_entry s e)) (snd (poll_entry s e)).
Proof.
  intros Hs. destruct (moves_pot s (IPollEntry e) _ (step_moves s (IPollEntry e)) Hs I) as (A & B & [H|(_ & w & all & i & len & cb & H)]);
    [exact (conj A (conj B H))|discriminate H].
Qed.

Definition bit (w : bool) (o : obj) : bool := if w then o_evW o else o_evR o.
Definition reactor (w : bool) (o : obj) : option opst := if w then o_wr o else o_rd o.

Lemma sys_read_pc o n :
  let o1 := fst (sys_read o n) in
  pc o1 = pc o /\ o_evR o1 = o_evR o /\ o_evW o1 = o_evW o /\ o_rd o1 = o_rd o /\ o_wr o1 = o_wr o.
Proof.
  pose proof (sys_read_user o n) as U. cbv zeta. unfold pc. rewrite (su_evR U), (su_evW U), (su_rd U), (su_wr U). auto.
Qed.

Lemma sys_write_pc o n :
  let o1 := fst (sys_write o n) in
  pc o1 = pc o /\ o_evR o1 = o_evR o /\ o_evW o1 = o_evW o /\ o_rd o1 = o_rd o /\ o_wr o1 = o_wr o.
Proof.
  pose proof (sys_write_user o n) as U. cbv zeta. unfold pc. rewrite (su_evR U), (su_evW U), (su_rd U), (su_wr U). auto.
Qed.

Lemma del_interest_pot s i o w s1 o1 :
  del_interest s i o w = (s1, o1) ->
  keep s s1 /\ l_objs s1 = l_objs s /\ bit w o1 = false /\
  pc o1 = pc o - (if bit w o then hold (reactor w o) else 0) /\ reactor w o1 = reactor w o.
Proof.
  rewrite del_interest_eq. intros H. inversion H; subst.
  split; [destruct (ev w o); [apply keep_set_pending|apply keep_refl]|]. split; [destruct (ev w o); reflexivity|].
  split; [destruct w; reflexivity|]. split; [exact (pc_clr w o)|destruct w; reflexivity].
Qed.

Lemma schedule_plain s i o w p wr : plain (snd (schedule s i o w p wr)).
Proof. destruct (schedule_eff s i o w p wr) as (o' & d & fo & items & E & B). rewrite E. exact (ends_items B). Qed.

Lemma schedule_keep s i o w p wr : keep s (fst (schedule s i o w p wr)).
Proof. destruct (schedule_eff s i o w p wr) as (o' & d & fo & items & E & _). rewrite E. apply keep_put. Qed.

Lemma io_now_plain fuel s i w p wr : plain (snd (io_now fuel s i w p wr)).
Proof.
  destruct (lookup i (l_objs s)) as [o|] eqn:Hl; [|rewrite (io_now_none Hl); left; reflexivity].
  destruct (io_now_eff fuel s i w p wr o Hl) as (o' & d & fo & items & E & B). rewrite E. exact (ends_items B).
Qed.

Lemma io_now_keep fuel s i w p wr : keep s (fst (io_now fuel s i w p wr)).
Proof.
  destruct (lookup i (l_objs s)) as [o|] eqn:Hl; [|rewrite (io_now_none Hl); destruct fuel; unfold keep; cbn; auto].
  destruct (io_now_eff fuel s i w p wr o Hl) as (o' & d & fo & items & E & _). rewrite E. apply keep_put.
Qed.

Lemma io_now_pot fuel s i w p wr :
  (forall o, lookup i (l_objs s) = Some o -> bit w o = false) ->
  pendc (fst (io_now fuel s i w p wr)) + stackc (snd (io_now fuel s i w p wr)) <= pendc s + hc p /\
  keep s (fst (io_now fuel s i w p wr)).
Proof.
  intros Hbit. split; [|apply io_now_keep]. pose proof (hc_range p) as Hr.
  destruct (lookup i (l_objs s)) as [o|] eqn:Hl.
  - destruct (io_now_eff fuel s i w p wr o Hl) as (o' & d & fo & items & E & B). rewrite E. cbn [fst snd].
    rewrite (pendc_put Hl). pose proof (ends_pot B (Hbit o eq_refl)). unfold hc. lia.
  - rewrite (io_now_none Hl).
    destruct fuel; cbn [fst snd stackc]; [change (pendc (out_of_fuel s)) with (pendc s)|]; lia.
Qed.

Lemma on_event_plain s i o w err : plain (snd (on_event s i o w err)).
Proof. destruct (on_event_eff s i o w err) as (o' & d & fo & items & E & B). rewrite E. exact (fires_items B). Qed.

Lemma on_event_pot s i o0 o w err :
  lookup i (l_objs s) = Some o0 -> bit w o = false ->
  pendc (fst (on_event s i o w err)) + stackc (snd (on_event s i o w err)) <= pendc s - pc o0 + pc o + hold (reactor w o) /\
  keep s (fst (on_event s i o w err)).
Proof.
  intros Hl Hb. destruct (on_event_eff s i o w err) as (o' & d & fo & items & E & B). rewrite E. cbn [fst snd].
  split; [|apply keep_put]. rewrite (pendc_put Hl).
  pose proof (fires_pot B Hb : pc o' + stackc items <= pc o + hold (reactor w o)). lia.
Qed.
End Once.
