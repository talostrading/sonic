(* C03: Pending() = registered interests + armed timers + queued posts.  [gap] is the difference: nothing the
   machine runs changes it, nor does a script line that creates under fresh identifiers.  Also [lrun] and [armed], with which C01, C03, C13 and C14 state their results. *)
From Sonic Require Import Base.Prelude Model.Loop Proofs.LoopMachine.
Local Open Scope Z_scope.

Definition wobj (o : obj) : Z := (if o_evR o then 1 else 0) + (if o_evW o then 1 else 0).
Definition wtm (t : tmr) : Z := if t_evR t then 1 else 0.

Fixpoint sumf {A} (w : A -> Z) (l : list (Z * A)) : Z :=
  match l with [] => 0 | (_, v) :: r => w v + sumf w r end.

Definition interest (s : loop) : Z := sumf wobj (l_objs s) + sumf wtm (l_tmrs s) + zlen (l_posts s).
Definition acct (s : loop) : Prop := l_pending s = interest s.

Lemma sum_update {A} (w : A -> Z) i v l :
  sumf w (update i v l) = sumf w l - (match lookup i l with Some o => w o | None => 0 end) + w v.
Proof.
  induction l as [|[k x] r IH]; cbn [update lookup sumf]; [lia|].
  destruct (i =? k) eqn:E; cbn [sumf]; [lia|]. rewrite IH. lia.
Qed.

Definition gap (s : loop) : Z := l_pending s - interest s.

Lemma acct_gap s : acct s <-> gap s = 0.
Proof. unfold acct, gap. lia. Qed.

(* [wobj] and [wtm], the weights of C03's statement, are LoopMachine's [nbits] and [tbit] *)
Lemma gap_put {s i o o' d fo} : lookup i (l_objs s) = Some o -> gap (put s i o' d fo) = gap s + d + nbits o - nbits o'.
Proof. intros Hl. unfold gap, interest, put. fields. rewrite sum_update, Hl. change wobj with nbits. lia. Qed.

Lemma gap_tput {s i t t' d} : lookup i (l_tmrs s) = Some t -> gap (tput s i t' d) = gap s + d + tbit t - tbit t'.
Proof. intros Hl. unfold gap, interest, tput. fields. rewrite sum_update, Hl. change wtm with tbit. lia. Qed.

(* by computation, and used by no proof *)
Lemma gap_add_log s e : gap (add_log s e) = gap s.
Proof. reflexivity. Qed.
Lemma gap_set_depth s d : gap (set_depth s d) = gap s.
Proof. reflexivity. Qed.
Lemma gap_out_of_fuel s : gap (out_of_fuel s) = gap s.
Proof. reflexivity. Qed.

Lemma ends_nbits {w cb wr o o' d fo items} : ends w cb wr o o' d fo items -> nbits o' = nbits o + d.
Proof.
  intros H. pose proof (so_ev (ends_other H)) as Vev. unfold nbits.
  destruct H as [o1 e n _ Hev _|o1 p' _ _ Hev _ _ _|o1 U].
  - destruct w; cbn [ev negb] in *; rewrite Hev, Vev; lia.
  - destruct w; cbn [ev negb] in *; rewrite Hev, Vev; destruct (o_evR o), (o_evW o); reflexivity.
  - rewrite (su_evR U), (su_evW U). lia.
Qed.

Lemma fires_nbits {w o o' d fo items} : fires w o o' d fo items -> nbits o' = nbits o + d.
Proof.
  intros H. assert (Hd : nbits (dereg w o) = nbits o) by (destruct w; reflexivity).
  destruct H as [_|p wr o1 d1 fo1 items1 _ B]; [|rewrite (ends_nbits B)]; lia.
Qed.

Lemma fire_gap {s i w o o' d fo items} :
  lookup i (l_objs s) = Some o -> ev w o = true -> fires w (clr w o) o' d fo items -> gap (put s i o' (d - 1) fo) = gap s.
Proof.
  intros Hl Hb B. rewrite (gap_put Hl), (fires_nbits B).
  assert (Hc : nbits (clr w o) = nbits o - 1) by (unfold nbits, ev in *; destruct w; cbn; rewrite Hb; lia). lia.
Qed.

Lemma step_gap s it : gap (fst (step s it)) = gap s.
Proof.
  induction (step_moves s it) as [it tail _|it e s' items _ _ IH|e|w all i len cb o o' d fo items wr Hl B
                                  |it w i o o' d fo items tail Hl E B _|i o Hl|it i t t' d cb items tail Hl A _ _ _ _
                                  |cb|e|cb err n w|w]; cbn [fst].
  - (* nothing found, nothing ready *) reflexivity.
  - (* a note in the log *) exact IH.
  - (* ILog *) reflexivity.
  - (* AStart *)
    rewrite (gap_put (s := note_overlap (add_log s (LStart cb i w all len)) (ev w o)) Hl), (ends_nbits B).
    change (gap (note_overlap _ _)) with (gap s). destruct w; unfold nbits; cbn; lia.
  - (* an interest fires *) exact (fire_gap Hl E B).
  - (* AClose *) rewrite (gap_put Hl). change (nbits (shut o)) with 0. lia.
  - (* a timer is stored *) rewrite (gap_tput Hl). lia.
  - (* APost *) unfold gap, interest; cbn. rewrite zlen_app. unfold zlen at 2; cbn. lia.
  - (* the posted handlers *) unfold gap, interest; cbn. unfold zlen; cbn. lia.
  - (* IInvoke *) destruct w; reflexivity.
  - (* IEnd *) destruct w; reflexivity.
Qed.

Theorem exec_gap fuel s stack : gap (exec fuel s stack) = gap s.
Proof. apply (exec_preserves (fun s' => gap s' = gap s)); [intros s' it H; rewrite step_gap; exact H|auto|reflexivity]. Qed.

(* the script creates objects and timers under fresh identifiers *)
Definition fresh_op (s : loop) (o : lop) : Prop :=
  match o with
  | LObj i _ => lookup i (l_objs s) = None
  | LTimer i => lookup i (l_tmrs s) = None
  | _ => True
  end.

Theorem lstep_gap s o : fresh_op s o -> gap (lstep s o) = gap s.
Proof.
  intros Hf. rewrite lstep_eq. cbv zeta. change (gap s) with (gap (refill s)).
  destruct o; cbn [fresh_op] in Hf.
  - (* LObj: nothing is overwritten *)
    unfold gap, interest, set_obj. fields. change (l_objs (refill s)) with (l_objs s). rewrite sum_update, Hf. cbn. lia.
  - (* LTimer *)
    unfold gap, interest, set_tmr. fields. change (l_tmrs (refill s)) with (l_tmrs s). rewrite sum_update, Hf. cbn. lia.
  - (* LProg *) reflexivity.
  - (* LDepth *) reflexivity.
  - (* LPeer *)
    destruct (lookup i (l_objs (refill s))) as [ob|] eqn:Hl; [|reflexivity].
    rewrite set_obj_put, (gap_put Hl). pose proof (peer_obj_flags p ob) as F. unfold nbits. rewrite (sf_evR F), (sf_evW F). lia.
  - (* LSleep *) reflexivity.
  - (* LPoll *) apply exec_gap.
  - (* LAct *) apply exec_gap.
Qed.

Fixpoint lrun (s : loop) (ops : list lop) : loop :=
  match ops with [] => s | o :: r => lrun (lstep s o) r end.

Lemma lrun_inv (P : loop -> Prop) : (forall s o, P s -> P (lstep s o)) -> forall ops s, P s -> P (lrun s ops).
Proof. intros Hstep. induction ops as [|o r IH]; intros s H; [exact H|]. exact (IH _ (Hstep s o H)). Qed.

Fixpoint fresh_ops (s : loop) (ops : list lop) : Prop :=
  match ops with [] => True | o :: r => fresh_op s o /\ fresh_ops (lstep s o) r end.

Definition armed (s : loop) (i : Z) (w : bool) : Prop :=
  exists o, lookup i (l_objs s) = Some o /\ (if w then o_evW o else o_evR o) = true.

Lemma ends_outcome s i {w cb wr o o' d fo items} :
  ends w cb wr o o' d fo items ->
  (exists e n, items = [IInvoke cb e n wr]) \/
  (items = [] /\ (armed (put s i o' d fo) i w \/ l_fuel_out (put s i o' d fo) = true)).
Proof.
  intros H. destruct H as [o1 e n _ _ _|o1 p' _ _ Hev _ _ _|o1 _].
  - left. exists e, n. reflexivity.
  - right. split; [reflexivity|]. left. exists o1. split; [apply lookup_update_same|exact Hev].
  - right. split; [reflexivity|]. right. apply orb_true_r.
Qed.
