(* C02, the read/write reactors of Model/RW.v.  [inv]: every byte the peer sent is in the buffer of a completed read, in
   that of the read in flight, or unread; the wire is what the writes had accepted.  read_now and write_now go through
   one decision tree, [now_exit]. *)
From Sonic Require Import Base.Prelude Base.ListLemmas Model.RW.
Local Open Scope Z_scope.

(* what the completed operations delivered to / took from the caller, oldest first *)
Fixpoint got (log : list rwev) : list Z :=
  match log with [] => [] | EvR _ _ _ d _ _ :: r => got r ++ d | _ :: r => got r end.
Fixpoint put (log : list rwev) : list Z :=
  match log with [] => [] | EvW _ _ n b _ :: r => put r ++ ztake n b | _ :: r => put r end.

Definition rd_part (r : option rdop) : list Z := match r with Some p => rd_filled p | None => [] end.
Definition wr_part (w : option wrop) : list Z := match w with Some p => ztake (wr_sofar p) (wr_buf p) | None => [] end.

Definition rd_ok (p : rdop) : Prop := rd_sofar p = zlen (rd_filled p) /\ 0 <= rd_sofar p <= rd_len p.
Definition wr_ok (p : wrop) : Prop := 0 <= wr_sofar p <= zlen (wr_buf p).

Definition ev_ok (e : rwev) : Prop :=
  match e with
  | EvR _ err n d all len => n = zlen d /\ 0 <= n <= len /\ (err = eNil -> all = true -> n = len)
  | EvW _ err n b all => 0 <= n <= zlen b /\ (err = eNil -> all = true -> n = zlen b)
  end.

Definition inv (s : rwst) : Prop :=
  rws_sent s = got (rws_log s) ++ rd_part (rws_rd s) ++ rws_in s /\
  rws_wire s = put (rws_log s) ++ wr_part (rws_wr s) /\
  (forall p, rws_rd s = Some p -> rd_ok p) /\ (forall p, rws_wr s = Some p -> wr_ok p) /\
  Forall ev_ok (rws_log s).

Lemma inv_intro s :
  rws_sent s = got (rws_log s) ++ rd_part (rws_rd s) ++ rws_in s ->
  rws_wire s = put (rws_log s) ++ wr_part (rws_wr s) ->
  (forall p, rws_rd s = Some p -> rd_ok p) -> (forall p, rws_wr s = Some p -> wr_ok p) ->
  Forall ev_ok (rws_log s) -> inv s.
Proof. unfold inv. auto. Qed.

Lemma inv_sent {s} : inv s -> rws_sent s = got (rws_log s) ++ rd_part (rws_rd s) ++ rws_in s.
Proof. intros H. apply H. Qed.
Lemma inv_wire {s} : inv s -> rws_wire s = put (rws_log s) ++ wr_part (rws_wr s).
Proof. intros H. apply H. Qed.
Lemma inv_rd_ok {s p} : inv s -> rws_rd s = Some p -> rd_ok p.
Proof. intros H. apply H. Qed.
Lemma inv_wr_ok {s p} : inv s -> rws_wr s = Some p -> wr_ok p.
Proof. intros H. apply H. Qed.
Lemma inv_log {s} : inv s -> Forall ev_ok (rws_log s).
Proof. intros H. apply H. Qed.

Definition same_rest (s s1 : rwst) : Prop :=
  rws_fl s1 = rws_fl s /\ rws_rd s1 = rws_rd s /\ rws_wr s1 = rws_wr s /\ rws_log s1 = rws_log s /\ rws_sent s1 = rws_sent s.

Lemma same_rest_refl s : same_rest s s.
Proof. unfold same_rest. auto. Qed.

Lemma same_rest_trans {s s0 s1} : same_rest s s0 -> same_rest s0 s1 -> same_rest s s1.
Proof. unfold same_rest. intros (A & B & C & D & E) (A' & B' & C' & D' & E'). rewrite A', B', C', D', E'. auto. Qed.

Lemma sys_read_spec s want n e bytes s1 :
  sys_read s want = (n, e, bytes, s1) -> 0 <= want ->
  0 <= n <= want /\ zlen bytes = n /\ rws_in s = bytes ++ rws_in s1 /\ rws_wire s1 = rws_wire s /\ same_rest s s1.
Proof.
  unfold sys_read, same_rest. intros H Hw. pose proof (zlen_nonneg (rws_in s)) as Hn.
  destruct (rws_fl s) eqn:Ef.
  - destruct (0 <? zlen (rws_in s)) eqn:E0.
    + injection H as <- <- <- <-. cbn.
      rewrite zlen_ztake by lia. rewrite ztake_zdrop_split. repeat split; auto; lia.
    + destruct (rws_eof s); injection H as <- <- <- <-; cbn; repeat split; auto; lia.
  - destruct (match rws_rscript s with [] => (want, eNil, []) | (n0, e0) :: r => (n0, e0, r) end) as [[n0 e0] rest].
    injection H as <- <- <- <-. cbn.
    rewrite zlen_ztake by lia. rewrite ztake_zdrop_split. repeat split; auto; lia.
Qed.

Lemma sys_write_spec s chunk n e s1 :
  sys_write s chunk = (n, e, s1) ->
  0 <= n <= zlen chunk /\ rws_wire s1 = rws_wire s ++ ztake n chunk /\ rws_in s1 = rws_in s /\ same_rest s s1.
Proof.
  unfold sys_write, same_rest. intros H. pose proof (zlen_nonneg chunk) as Hn.
  destruct (rws_fl s) eqn:Ef.
  - injection H as <- <- <-. cbn. rewrite ztake_all by lia. repeat split; auto; lia.
  - destruct (match rws_wscript s with [] => (zlen chunk, eNil, []) | (n0, e0) :: r => (n0, e0, r) end) as [[n0 e0] rest].
    injection H as <- <- <-. cbn. repeat split; auto; lia.
Qed.

(* How a round of asyncReadNow / asyncWriteNow ends (n the count kept after the system call, goal the count asked for);
   the two loops decide alike.  None: call again (the file, after a short transfer). *)
Definition now_exit (fl : flav) (e : Z) (all : bool) (n goal : Z) : option now_res :=
  if (e =? eNil) && negb (all && negb (n =? goal)) then Some (Done eNil n)
  else
    match fl with
    | FFile => if e =? eNil then None else if e =? eWouldBlock then Some Resched else Some (Done e n)
    | FAdapter => if e =? eNil then Some Resched else Some (Done e n)
    end.

Lemma now_exit_reports fl e all n goal r :
  now_exit fl e all n goal = Some r ->
  match r with Done e' n' => n' = n /\ (e' = eNil -> all = true -> n' = goal) | _ => True end.
Proof.
  unfold now_exit. destruct ((e =? eNil) && negb (all && negb (n =? goal))) eqn:Ec.
  - (* Done with nil: the test Ec has just said that an *All is complete *)
    intros [= <-]. split; [reflexivity|]. intros _ ->. cbn in Ec. lia.
  - (* every other Done carries the error e <> eNil, of which the second clause says nothing *)
    destruct fl, (e =? eNil) eqn:Ee.
    + (* file, short transfer: no exit *) discriminate.
    + (* file, error *) destruct (e =? eWouldBlock); intros [= <-]; [exact I|]. split; [reflexivity|lia].
    + (* adapter, short transfer *) intros [= <-]. exact I.
    + (* adapter, error *) intros [= <-]. split; [reflexivity|lia].
Qed.

Lemma read_now_S f s p :
  read_now (S f) s p =
  let '(n, e, bytes, s1) := sys_read s (rd_len p - rd_sofar p) in
  let p1 := mkrd (rd_all p) (rd_len p) (rd_sofar p + n) (rd_cb p) (rd_filled p ++ bytes) in
  match now_exit (rws_fl s) e (rd_all p) (rd_sofar p1) (rd_len p) with
  | Some r => (s1, p1, r)
  | None => read_now f s1 p1
  end.
Proof.
  cbn [read_now]. destruct (sys_read s _) as [[[n e] bytes] s1]. unfold now_exit. cbv zeta.
  destruct ((e =? eNil) && _); [reflexivity|].
  destruct (rws_fl s), (e =? eNil); try destruct (e =? eWouldBlock); reflexivity.
Qed.

Lemma write_now_S f s p :
  write_now (S f) s p =
  let '(n, e, s1) := sys_write s (zdrop (wr_sofar p) (wr_buf p)) in
  let p1 := mkwr (wr_all p) (wr_buf p) (wr_sofar p + n) (wr_cb p) in
  match now_exit (rws_fl s) e (wr_all p) (wr_sofar p1) (zlen (wr_buf p)) with
  | Some r => (s1, p1, r)
  | None => write_now f s1 p1
  end.
Proof.
  cbn [write_now]. destruct (sys_write s _) as [[n e] s1]. unfold now_exit. cbv zeta.
  destruct ((e =? eNil) && _); [reflexivity|].
  destruct (rws_fl s), (e =? eNil); try destruct (e =? eWouldBlock); reflexivity.
Qed.

Lemma read_now_spec fuel : forall s p s1 p1 r,
  read_now fuel s p = (s1, p1, r) -> rd_ok p ->
  exists moved,
    rd_filled p1 = rd_filled p ++ moved /\ rws_in s = moved ++ rws_in s1 /\ rd_ok p1 /\
    rd_all p1 = rd_all p /\ rd_len p1 = rd_len p /\ rd_cb p1 = rd_cb p /\
    rws_wire s1 = rws_wire s /\ same_rest s s1 /\
    match r with Done e n => n = rd_sofar p1 /\ (e = eNil -> rd_all p = true -> n = rd_len p) | _ => True end.
Proof.
  induction fuel as [|f IH]; intros s p s1 p1 r H Hok.
  { injection H as <- <- <-. exists []. rewrite app_nil_r. auto 10 using same_rest_refl. }
  rewrite read_now_S in H. destruct Hok as [Hs Hr].
  destruct (sys_read s (rd_len p - rd_sofar p)) as [[[n e] bytes] s0] eqn:Es.
  destruct (sys_read_spec _ _ _ _ _ _ Es ltac:(lia)) as (Hn & Hb & Hin & Hwire & Hrest).
  cbv zeta in H. set (p0 := mkrd (rd_all p) (rd_len p) (rd_sofar p + n) (rd_cb p) (rd_filled p ++ bytes)) in *.
  assert (Hok0 : rd_ok p0) by (unfold rd_ok, p0; cbn; rewrite zlen_app; lia).
  destruct (now_exit (rws_fl s) e (rd_all p) (rd_sofar p0) (rd_len p)) as [r0|] eqn:Ex.
  - injection H as <- <- <-. exists bytes. apply now_exit_reports in Ex. auto 10.
  - (* another call: the bytes of this one go in front of those the remaining calls move *)
    destruct (IH _ _ _ _ _ H Hok0) as (moved & Hfill & Hin1 & Hok1 & Hall & Hlen & Hcb & Hwire1 & Hrest1 & Hres).
    exists (bytes ++ moved). pose proof (same_rest_trans Hrest Hrest1).
    rewrite Hfill, Hin, Hin1, Hall, Hlen, Hcb, Hwire1, Hwire. cbn [p0 rd_filled rd_all rd_len rd_cb] in *.
    rewrite !app_assoc. auto 10.
Qed.
Arguments read_now_spec {fuel s p s1 p1 r} _ _.

Lemma write_now_spec fuel : forall s p s1 p1 r,
  write_now fuel s p = (s1, p1, r) -> wr_ok p ->
  exists acc,
    rws_wire s1 = rws_wire s ++ acc /\ ztake (wr_sofar p1) (wr_buf p1) = ztake (wr_sofar p) (wr_buf p) ++ acc /\ wr_ok p1 /\
    wr_all p1 = wr_all p /\ wr_buf p1 = wr_buf p /\ wr_cb p1 = wr_cb p /\
    rws_in s1 = rws_in s /\ same_rest s s1 /\
    match r with Done e n => n = wr_sofar p1 /\ (e = eNil -> wr_all p = true -> n = zlen (wr_buf p)) | _ => True end.
Proof.
  induction fuel as [|f IH]; intros s p s1 p1 r H Hok.
  { injection H as <- <- <-. exists []. rewrite !app_nil_r. auto 10 using same_rest_refl. }
  rewrite write_now_S in H. unfold wr_ok in Hok.
  destruct (sys_write s (zdrop (wr_sofar p) (wr_buf p))) as [[n e] s0] eqn:Es.
  destruct (sys_write_spec _ _ _ _ _ Es) as (Hn & Hwire & Hin & Hrest). rewrite zlen_zdrop in Hn by lia.
  cbv zeta in H. set (p0 := mkwr (wr_all p) (wr_buf p) (wr_sofar p + n) (wr_cb p)) in *.
  set (taken := ztake n (zdrop (wr_sofar p) (wr_buf p))) in *.
  assert (Hok0 : wr_ok p0) by (unfold wr_ok, p0; cbn; lia).
  assert (Hext : ztake (wr_sofar p0) (wr_buf p0) = ztake (wr_sofar p) (wr_buf p) ++ taken) by (apply ztake_extend; lia).
  destruct (now_exit (rws_fl s) e (wr_all p) (wr_sofar p0) (zlen (wr_buf p))) as [r0|] eqn:Ex.
  - injection H as <- <- <-. exists taken. apply now_exit_reports in Ex. auto 10.
  - destruct (IH _ _ _ _ _ H Hok0) as (acc & Hwire1 & Hext1 & Hok1 & Hall & Hbuf & Hcb & Hin1 & Hrest1 & Hres).
    exists (taken ++ acc). pose proof (same_rest_trans Hrest Hrest1).
    rewrite Hwire1, Hwire, Hext1, Hext, Hall, Hbuf, Hcb, Hin1, Hin. cbn [p0 wr_all wr_buf wr_cb] in *.
    rewrite !app_assoc. auto 10.
Qed.
Arguments write_now_spec {fuel s p s1 p1 r} _ _.

(* p is the read in flight (a poll) or a new read while none is in flight (a start) *)
Lemma attempt_read_inv s p : inv (set_rd s (Some p)) -> inv (attempt_read s p).
Proof.
  intros (Isent & Iwire & Ird & Iwr & Ilog). cbn in *. unfold attempt_read.
  destruct (read_now now_fuel s p) as [[s1 p1] r] eqn:E.
  destruct (read_now_spec E (Ird _ eq_refl)) as (moved & Hfill & Hin & Hok1 & Hall & Hlen & _ & Hwire & Hrest & Hres).
  destruct Hrest as (_ & _ & Ewr & Elog & Esent).
  (* the invariant of s in the terms of s1 and p1: [moved] has gone from the unread bytes into the buffer *)
  rewrite Hin, (app_assoc (rd_filled p)), <- Hfill, <- Esent, <- Elog in Isent.
  rewrite <- Hwire, <- Elog, <- Ewr in Iwire. rewrite <- Ewr in Iwr. rewrite <- Elog in Ilog.
  (* deferred, out of fuel or not (inv does not look at rws_fuel_out): the read stays in flight *)
  assert (Hdefer : inv (set_rd s1 (Some p1))).
  { apply inv_intro; cbn; trivial. intros q [= <-]. exact Hok1. }
  destruct r as [e n| |]; [|exact Hdefer|exact Hdefer].
  (* completed: the buffer goes into the log with the callback's event *)
  destruct Hres as [Hn Hnil]. apply inv_intro; cbn; trivial.
  - (* sent *) rewrite <- app_assoc. exact Isent.
  - (* no read in flight *) discriminate.
  - (* the log *) constructor; [|exact Ilog]. cbn. destruct Hok1 as [Hlen1 Hrange]. rewrite Hall, Hlen. repeat split; try lia; exact Hnil.
Qed.

Lemma attempt_write_inv s p : inv (set_wr s (Some p)) -> inv (attempt_write s p).
Proof.
  intros (Isent & Iwire & Ird & Iwr & Ilog). cbn in *. unfold attempt_write.
  destruct (write_now now_fuel s p) as [[s1 p1] r] eqn:E.
  destruct (write_now_spec E (Iwr _ eq_refl)) as (acc & Hwire & Hext & Hok1 & Hall & Hbuf & _ & Hin & Hrest & Hres).
  destruct Hrest as (_ & Erd & _ & Elog & Esent).
  (* the invariant of s in the terms of s1 and p1: [acc] has gone from the buffer onto the wire *)
  rewrite <- Esent, <- Elog, <- Erd, <- Hin in Isent. rewrite Iwire, <- app_assoc, <- Hext, <- Elog in Hwire.
  rewrite <- Erd in Ird. rewrite <- Elog in Ilog.
  assert (Hdefer : inv (set_wr s1 (Some p1))).
  { apply inv_intro; cbn; trivial. intros q [= <-]. exact Hok1. }
  destruct r as [e n| |]; [|exact Hdefer|exact Hdefer].
  destruct Hres as [Hn Hnil]. apply inv_intro; cbn; trivial.
  - (* wire *) rewrite Hwire, Hn, app_nil_r. reflexivity.
  - (* no write in flight *) discriminate.
  - (* the log *) constructor; [|exact Ilog]. cbn. unfold wr_ok in Hok1. rewrite Hall. rewrite Hbuf in *. repeat split; try lia; exact Hnil.
Qed.

Definition contract (s : rwst) (o : rwop) : Prop :=
  match o with
  | ORStart _ len _ => rws_rd s = None /\ 0 < len
  | OWStart _ buf _ => rws_wr s = None /\ 0 < zlen buf
  | _ => True
  end.

Theorem rwstep_inv s o : inv s -> contract s o -> inv (rwstep s o).
Proof.
  intros Hi Hc. destruct o; cbn [rwstep contract] in *.
  - (* a read starts: it is in flight; the file attempts it at once, the adapter waits for a poll *)
    destruct Hc as [Hn Hl].
    assert (H : inv (set_rd s (Some (mkrd all len 0 cb [])))).
    { apply inv_intro; cbn; try apply Hi.
      - rewrite (inv_sent Hi), Hn. reflexivity.
      - intros q [= <-]. unfold rd_ok; cbn; unfold zlen; cbn; lia. }
    destruct (rws_fl s); [apply attempt_read_inv|]; exact H.
  - (* a write starts, likewise *)
    destruct Hc as [Hn Hl].
    assert (H : inv (set_wr s (Some (mkwr all buf 0 cb)))).
    { apply inv_intro; cbn; try apply Hi.
      - rewrite (inv_wire Hi), Hn. reflexivity.
      - intros q [= <-]. unfold wr_ok; cbn; lia. }
    destruct (rws_fl s); [apply attempt_write_inv|]; exact H.
  - (* a poll: the deferred read if the transport is ready, then the deferred write *)
    set (s1 := match rws_rd s with Some _ => _ | None => _ end).
    assert (H1 : inv s1).
    { subst s1. destruct (rws_rd s) as [p|] eqn:Er; [|exact Hi]. destruct (read_ready s); [|exact Hi].
      apply attempt_read_inv. rewrite <- Er. exact Hi. }
    destruct (rws_wr s1) as [p|] eqn:Ew; [|exact H1].
    apply attempt_write_inv. rewrite <- Ew. exact H1.
  - (* the peer sends: what was sent and what is unread grow by the same bytes *)
    apply inv_intro; cbn; try apply Hi. rewrite (inv_sent Hi), <- !app_assoc. reflexivity.
  - exact Hi.
  - exact Hi.
  - exact Hi.
Qed.

Fixpoint contracts (s : rwst) (ops : list rwop) : Prop :=
  match ops with [] => True | o :: r => contract s o /\ contracts (rwstep s o) r end.

Theorem rwrun_inv ops : forall s, inv s -> contracts s ops -> inv (rwrun s ops).
Proof.
  induction ops as [|o r IH]; intros s Hi Hc; [exact Hi|]. destruct Hc as [Hc1 Hc2]. cbn [rwrun].
  apply IH; [apply rwstep_inv; assumption|exact Hc2].
Qed.

Lemma inv_init fl : inv (rw_init fl).
Proof. unfold inv, rw_init; cbn. repeat split; try discriminate. constructor. Qed.
