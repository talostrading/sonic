(* C01, after Close: a closed object has no interest registered with the poller, in every reachable state. *)
From Sonic Require Import Base.Prelude Model.Loop Proofs.LoopMachine.
Local Open Scope Z_scope.

Definition clok (o : obj) : Prop := o_closed o = true -> o_evR o = false /\ o_evW o = false.
Definition cl_inv (s : loop) : Prop := Forall (fun p => clok (snd p)) (l_objs s).

(* cl_inv is [objs_ok cl_flags] by unfolding *)
Definition cl_flags (c r w g : bool) : Prop := c = true -> r = false /\ w = false.

Theorem lstep_cl s o : cl_inv s -> cl_inv (lstep s o).
Proof.
  apply (lstep_objs cl_flags); unfold cl_flags.
  - (* a read interest is registered: on an open object *) discriminate.
  - (* a write interest is registered *) discriminate.
  - (* the read interest goes *) intros c r w g H Hc. split; [reflexivity|apply H, Hc].
  - (* the write interest goes *) intros c r w g H Hc. split; [apply H, Hc|reflexivity].
  - (* the registry is left *) intros c g H. exact H.
  - (* Close *) intros _. split; reflexivity.
  - (* a new object *) discriminate.
Qed.
