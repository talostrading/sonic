(* C11: the regenerated MirroredBuffer cursor code in closed form, what each operation does to a ring that satisfies
   minv, and minv along every history. *)
From Sonic Require Import Base.Prelude Base.ListLemmas Gen.Mirrored Model.MirrorMem.
Local Open Scope Z_scope.
Local Arguments Z.mul : simpl never.
Local Arguments Z.modulo : simpl never.

Definition minv (c : MirroredBuffer) : Prop :=
  let size := MirroredBuffer_size c in
  0 < size /\ MirroredBuffer_slice_len c = 2 * size /\
  0 <= MirroredBuffer_head c < size /\ 0 <= MirroredBuffer_tail c < size /\
  0 <= MirroredBuffer_used c <= size /\
  MirroredBuffer_tail c = (MirroredBuffer_head c + MirroredBuffer_used c) mod size.

Lemma new_eq page req : 0 < page ->
  MirroredBuffer_new page req =
  if req <=? 0 then None
  else let size := if req mod page =? 0 then req else req + (page - req mod page) in
       Some (mkMirroredBuffer (2 * size) size (size - 1) 0 0 0).
Proof.
  intros Hp. unfold MirroredBuffer_new. destruct (req <=? 0) eqn:E.
  - pose proof (Z.rem_nonpos req page ltac:(lia) ltac:(lia)).
    replace (Z.rem req page >? 0) with false by lia. reflexivity.
  - (* on a positive dividend Go's % is mod *)
    rewrite Z.rem_mod_nonneg by lia. pose proof (Z.mod_pos_bound req page Hp).
    destruct (req mod page >? 0) eqn:E1.
    + replace (req mod page =? 0) with false by lia. replace (_ <=? 0) with false by lia. reflexivity.
    + replace (req mod page =? 0) with true by lia. reflexivity.
Qed.

Lemma new_spec page req b :
  0 < page -> MirroredBuffer_new page req = Some b ->
  minv b /\ MirroredBuffer_used b = 0 /\ 0 < req /\
  MirroredBuffer_size b mod page = 0 /\ req <= MirroredBuffer_size b < req + page.
Proof.
  intros Hp. rewrite new_eq by exact Hp. destruct (req <=? 0) eqn:E; [discriminate|]. cbv zeta. intros [= <-].
  pose proof (Z.mod_pos_bound req page Hp) as Hb.
  destruct (req mod page =? 0) eqn:Er; unfold minv; cbn; rewrite Z.mod_0_l by lia; [lia|].
  assert (Hm : (req + (page - req mod page)) mod page = 0); [|lia].
  replace (req + _) with ((req / page + 1) * page) by (pose proof (Z.div_mod req page ltac:(lia)); lia).
  apply Z.mod_mul. lia.
Qed.

Lemma Claim_eq c n : minv c -> 0 <= n ->
  MirroredBuffer_Claim c n =
  let k := Z.min n (MirroredBuffer_FreeSpace c) in
  Ok (c, if k =? 0 then None else Some (mkslice (MirroredBuffer_tail c) k)).
Proof.
  unfold minv, MirroredBuffer_Claim. intros Hi Hn.
  assert (Hf : 0 <= MirroredBuffer_FreeSpace c <= MirroredBuffer_size c) by (unfold MirroredBuffer_FreeSpace; lia).
  set (free := MirroredBuffer_FreeSpace c) in *. cbv zeta.
  erewrite (clamp_if n free (fun k => _)). rewrite Z.min_comm. set (k := Z.min n free).
  destruct (k =? 0) eqn:E0; [reflexivity|].
  (* the first k bytes of slice[tail:] *)
  rewrite slice_of_ok by lia. cbn [obind]. rewrite reslice_ok by (cbn [slen]; lia).
  cbn [obind soff]. rewrite Z.add_0_r, Z.sub_0_r. reflexivity.
Qed.

Lemma Commit_eq c n :
  MirroredBuffer_Commit c n =
  let k := Z.min n (MirroredBuffer_FreeSpace c) in
  Ok (set_MirroredBuffer_tail (set_MirroredBuffer_used c (MirroredBuffer_used c + k))
        (Z.rem (MirroredBuffer_tail c + k) (MirroredBuffer_size c)), k).
Proof.
  unfold MirroredBuffer_Commit. set (free := MirroredBuffer_FreeSpace c). cbv zeta.
  erewrite (clamp_if n free (fun k => _)). rewrite Z.min_comm. reflexivity.
Qed.

Lemma Consume_eq c n :
  MirroredBuffer_Consume c n =
  let k := Z.min n (MirroredBuffer_UsedSpace c) in
  Ok (if k =? 0 then c
      else set_MirroredBuffer_head (set_MirroredBuffer_used c (MirroredBuffer_used c - k))
             (Z.rem (MirroredBuffer_head c + k) (MirroredBuffer_size c)), k).
Proof.
  unfold MirroredBuffer_Consume. set (used := MirroredBuffer_UsedSpace c). cbv zeta.
  erewrite (clamp_if n used (fun k => _)). rewrite Z.min_comm. destruct (_ =? 0) eqn:E0; [|reflexivity].
  (* nothing to consume: the generated code returns the literal 0 where the closed form returns k, which is 0 *)
  apply Z.eqb_eq in E0. rewrite E0. reflexivity.
Qed.

Lemma commit_spec c n c' k :
  minv c -> 0 <= n -> MirroredBuffer_Commit c n = Ok (c', k) ->
  k = Z.min n (MirroredBuffer_FreeSpace c) /\ minv c' /\
  MirroredBuffer_size c' = MirroredBuffer_size c /\
  MirroredBuffer_head c' = MirroredBuffer_head c /\
  MirroredBuffer_used c' = MirroredBuffer_used c + k /\
  MirroredBuffer_tail c' = (MirroredBuffer_tail c + k) mod MirroredBuffer_size c.
Proof.
  intros Hi Hn. rewrite Commit_eq. cbv zeta. intros [= <- <-].
  destruct c as [sl size mask h t u]. unfold minv, MirroredBuffer_FreeSpace in *; cbn in *.
  set (k := Z.min n (size - u)) in *. destruct Hi as (Hs & Hsl & Hh & Ht & Hu & ->).
  (* the tail sits at (h + u) mod size, so k further on it sits at (h + (u + k)) mod size *)
  pose proof (Z.mod_pos_bound ((h + u) mod size + k) size Hs). rewrite Z.rem_mod_nonneg by lia.
  repeat split; try (reflexivity || lia). rewrite Zplus_mod_idemp_l, Z.add_assoc. reflexivity.
Qed.

Lemma consume_spec c n c' k :
  minv c -> 0 <= n -> MirroredBuffer_Consume c n = Ok (c', k) ->
  k = Z.min n (MirroredBuffer_UsedSpace c) /\ minv c' /\
  MirroredBuffer_size c' = MirroredBuffer_size c /\
  MirroredBuffer_tail c' = MirroredBuffer_tail c /\
  MirroredBuffer_used c' = MirroredBuffer_used c - k /\
  MirroredBuffer_head c' = (MirroredBuffer_head c + k) mod MirroredBuffer_size c.
Proof.
  intros Hi Hn. rewrite Consume_eq. cbv zeta.
  destruct c as [sl size mask h t u]. unfold minv, MirroredBuffer_UsedSpace in *; cbn in *.
  set (k0 := Z.min n u) in *. destruct Hi as (Hs & Hsl & Hh & Ht & Hu & ->).
  destruct (k0 =? 0) eqn:E; intros [= <- <-]; cbn.
  - replace k0 with 0 by lia. rewrite Z.add_0_r, Z.sub_0_r, (Z.mod_small h) by lia. repeat split; (reflexivity || lia).
  - pose proof (Z.mod_pos_bound (h + k0) size Hs). rewrite Z.rem_mod_nonneg by lia.
    repeat split; try (reflexivity || lia). rewrite Zplus_mod_idemp_l. f_equal. lia.
Qed.

Lemma reset_spec c c' r :
  minv c -> MirroredBuffer_Reset c = Ok (c', r) ->
  minv c' /\ MirroredBuffer_used c' = 0 /\ MirroredBuffer_size c' = MirroredBuffer_size c.
Proof.
  unfold minv. intros Hi [= <- <-]; cbn. rewrite Z.mod_0_l by lia. lia.
Qed.

Lemma mstep_ok s o : minv (mcur s) -> mnonneg o ->
  exists s' r, mstep s o = Ok (s', r) /\ minv (mcur s') /\ MirroredBuffer_size (mcur s') = MirroredBuffer_size (mcur s).
Proof.
  intros Hi Hn. destruct o as [n|st|n|n| |]; cbn [mstep mnonneg] in *.
  - rewrite Claim_eq by assumption. eexists _, _. split; [reflexivity|]. cbn. auto.
  - (* Fill *)
    destruct (mlive s); eexists _, _; (split; [reflexivity|]); cbn; auto.
  - destruct (MirroredBuffer_Commit (mcur s) n) as [[c k]|] eqn:E; [|rewrite Commit_eq in E; discriminate].
    destruct (commit_spec _ _ _ _ Hi Hn E) as (_ & Hi' & Hsz & _). eexists _, _. split; [reflexivity|]. cbn. auto.
  - destruct (MirroredBuffer_Consume (mcur s) n) as [[c k]|] eqn:E; [|rewrite Consume_eq in E; discriminate].
    destruct (consume_spec _ _ _ _ Hi Hn E) as (_ & Hi' & Hsz & _). eexists _, _. split; [reflexivity|]. cbn. auto.
  - (* Reset, which computes *)
    destruct (reset_spec _ _ _ Hi eq_refl) as (Hi' & _ & Hsz). eexists _, _. split; [reflexivity|]. cbn. auto.
  - (* Dump *)
    eexists _, _. split; [reflexivity|]. auto.
Qed.

Lemma mrun_inv ops : forall s, minv (mcur s) -> Forall mnonneg ops ->
  exists s', mrun s ops = Ok s' /\ minv (mcur s') /\ MirroredBuffer_size (mcur s') = MirroredBuffer_size (mcur s).
Proof.
  induction ops as [|o ops IH]; intros s Hb Hf; cbn [mrun]; [eauto|].
  inversion Hf as [|? ? Ho Hrest]; subst.
  destruct (mstep_ok s o Hb Ho) as (s1 & r & -> & Hi1 & Hsz1). cbn [obind].
  destruct (IH s1 Hi1 Hrest) as (s' & Hr & Hi' & Hsz'). exists s'. rewrite Hsz'. auto.
Qed.

Lemma reachable page req b ops :
  0 < page -> MirroredBuffer_new page req = Some b -> Forall mnonneg ops ->
  exists s, mrun (minit b) ops = Ok s /\ minv (mcur s) /\ MirroredBuffer_size (mcur s) = MirroredBuffer_size b.
Proof.
  intros Hp Hn Hf. destruct (new_spec _ _ _ Hp Hn) as (Hi & _).
  apply (mrun_inv ops (minit b)); auto.
Qed.
