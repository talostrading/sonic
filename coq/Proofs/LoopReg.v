(* C13, registry part: an object with an interest registered is in the IO's registry, which keeps it reachable. *)
From Sonic Require Import Base.Prelude Model.Loop Proofs.LoopMachine.
Local Open Scope Z_scope.

Definition regok (o : obj) : Prop := o_evR o || o_evW o = true -> o_reg o = true.
Definition reg_inv (s : loop) : Prop := Forall (fun p => regok (snd p)) (l_objs s).

(* reg_inv is [objs_ok reg_flags] by unfolding *)
Definition reg_flags (c r w g : bool) : Prop := r || w = true -> g = true.

Theorem lstep_reg s o : reg_inv s -> reg_inv (lstep s o).
Proof.
  apply (lstep_objs reg_flags); unfold reg_flags.
  - (* a read interest is registered *) reflexivity.
  - (* a write interest is registered *) reflexivity.
  - (* the read interest goes *)
    intros c r w g H Hw. apply H. change (w = true) in Hw. rewrite Hw. apply orb_true_r.
  - (* the write interest goes *)
    intros c r w g H Hr. apply H. rewrite orb_false_r in Hr. rewrite Hr. reflexivity.
  - (* the registry is left *) discriminate.
  - (* Close *) discriminate.
  - (* a new object *) discriminate.
Qed.
