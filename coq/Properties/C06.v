(* C06 -- message delivery fidelity under fragmentation / segmentation. *)
From Sonic Require Import Base.Prelude Gen.Consts Gen.Preds Model.WsFrame Spec.FrameParser Model.WsCodec Model.Transport
  Model.WsStream Proofs.WsCodecProofs Proofs.WsStreamProofs Proofs.WsMessageProofs.
Local Open Scope Z_scope.

(* ReadNext / AsyncReadNext with the frame codec, over ANY segmentation of the inbound bytes by the transport (chunks of
   any size, cuts inside headers, would-block between them, EOF, errors - and bytes already sitting in the read buffer,
   e.g. left over from the handshake response): a frame that is delivered is, byte for byte, the next frame of the
   stream; when none is delivered no byte of the stream is lost.  (The converse, on a transport that holds data only, is
   WsMessageProofs.ws_read_loop_data.)  By induction over the transport's event queue. *)
Theorem C06_frames_are_the_stream : forall fuel c t async c' t' r,
  cinv c -> bytes (unread c) -> wevs_ok (tr_in t) -> (length (tr_in t) < fuel)%nat ->
  ws_read_loop fuel c t async = (c', t', r) ->
  cinv c' /\ bytes (unread c') /\ wevs_ok (tr_in t') /\ c_max c' = c_max c /\
  match r with
  | RdFrame f => parse1 (c_max c) (wstream c t) = PFrame f (wstream c' t')
  | _ => wstream c' t' = wstream c t
  end.
Proof. exact ws_read_loop_spec. Qed.
Print Assumptions C06_frames_are_the_stream.

(* The blocking and the asynchronous read path deliver the same frame from the same bytes. *)
Theorem C06_blocking_and_async_agree : forall fuel c t c' t' f,
  ws_read_loop fuel c t false = (c', t', RdFrame f) -> ws_read_loop fuel c t true = (c', t', RdFrame f).
Proof.
  intros fuel.
  induction fuel as [|fu IH]; intros c t c' t' f H; cbn [ws_read_loop] in *; [discriminate|].
  destruct (decode c) as [c1 dr]. destruct dr; try exact H.
  destruct (tr_read t) as [t1 rr]. destruct rr; try exact H; try discriminate.
  apply IH. exact H.
Qed.
Print Assumptions C06_blocking_and_async_agree.

(* Message reassembly, one frame at a time (NextMessage and asyncNextMessage share msg_frame): control frames go to the
   control callback and leave the message untouched; a data frame's payload is appended in order (the reported length is
   the accumulated payload length), the type is the first frame's opcode, FIN ends the message. *)
Theorem C06_control_between_fragments : forall async s buflen acc cont mtype f,
  Opcode_IsControl (opcode_of f) = true ->
  msg_frame async s buflen acc cont mtype f eNone = (s, MMore acc cont mtype [ECtl (opcode_of f) (payload_of f)]).
Proof. exact msg_frame_ctl. Qed.
Print Assumptions C06_control_between_fragments.

Theorem C06_fragment_appended_in_order : forall async s buflen acc cont mtype f,
  Opcode_IsControl (opcode_of f) = false ->
  zlen acc + zlen (payload_of f) <= buflen -> zlen acc + zlen (payload_of f) <= w_max s ->
  payload_length f = zlen (payload_of f) ->
  (cont = false -> Opcode_IsContinuation (opcode_of f) = false) ->
  (cont = true -> Opcode_IsContinuation (opcode_of f) = true) ->
  let mt := if mtype =? ws_TypeNone then opcode_of f else mtype in
  let acc' := acc ++ payload_of f in
  msg_frame async s buflen acc cont mtype f eNone =
    (s, if is_fin f then MDone [EMsg mt (zlen acc') acc' eNone] else MMore acc' true mt []).
Proof.
  intros async s buflen acc cont mtype f Hc Hfit Hmax Hpl Hc0 Hc1.
  apply msg_frame_data; try assumption. destruct cont; [apply Hc1|apply Hc0]; reflexivity.
Qed.
Print Assumptions C06_fragment_appended_in_order.

(* Non-vacuity: a text message in three fragments with a ping between them, delivered in awkward pieces, read with the
   blocking and the asynchronous message API; both deliver (text, "hello!") once, after the ping's control callback. *)
Definition bytes_in : list Z := [1; 2; 104; 101] ++ [137; 1; 9] ++ [0; 3; 108; 108; 111] ++ [128; 1; 33].
Example C06_demo :
  let run api := snd (fold_left (fun '(s, out) o => let '(s', evs) := wsstep s o in (s', out ++ evs))
                        [WIn (InData (ztake 3 bytes_in)); api; WIn (InData (zsub 3 8 bytes_in)); WIn (InData (zdrop 8 bytes_in)); api]
                        (ws_init 1024 [[1;2;3;4]], [])) in
  run (WNextMessage 64) = [EMsg 255 0 [] eWouldBlock; ECtl 9 [9]; EMsg 1 6 [104;101;108;108;111;33] eNone] /\
  run (WAsyncNextMessage 64) = [EPending; ECtl 9 [9]; EMsg 1 6 [104;101;108;108;111;33] eNone; EPending].
Proof. vm_compute. split; reflexivity. Qed.

(* ---- whole messages.  [pseq max fs T R]: parsing the frames fs one after the other from the byte string T leaves R
   (Proofs/WsCodecProofs.v).  [frag_seq false fs]: fs is one conforming message - a non-continuation data frame, then
   continuation frames, FIN exactly on the last one, valid Ping/Pong frames anywhere between.  [St s]: a stream that can
   read, on a healthy transport whose inbound queue holds data only. *)

(* NextMessage / AsyncNextMessage when the message's bytes have arrived, in pieces of any size: the control callbacks in
   order, then exactly one message - the concatenation of the fragments' payloads, the first fragment's type, no error;
   the stream is positioned right behind the final fragment. *)
Theorem C06_whole_message : forall (async : bool) s buflen fs R s' evs,
  St s -> pseq (c_max (w_codec s)) fs (sstream s) R -> frag_seq false fs = true ->
  zlen (msg_payload fs) <= buflen -> zlen (msg_payload fs) <= w_max s ->
  wsstep s (if async then WAsyncNextMessage buflen else WNextMessage buflen) = (s', evs) ->
  evs = msg_ctl fs ++ [EMsg (msg_type ws_TypeNone fs) (zlen (msg_payload fs)) (msg_payload fs) eNone] /\
  St s' /\ sstream s' = R /\ w_state s' = w_state s.
Proof. exact message_any_segmentation. Qed.
Print Assumptions C06_whole_message.

(* AsyncNextMessage issued first, then the bytes arrive in ANY pieces with the read parked in between (cuts inside
   headers, between fragments, several frames per piece, pieces that complete nothing): the same single message. *)
Theorem C06_async_message_any_segmentation : forall chunks s buflen fs R s' evs,
  St s -> w_rpend s = None -> Forall bytes chunks ->
  pseq (c_max (w_codec s)) fs (sstream s ++ concat chunks) R -> frag_seq false fs = true ->
  zlen (msg_payload fs) <= buflen -> zlen (msg_payload fs) <= w_max s ->
  wsrun_ev s (WAsyncNextMessage buflen :: arrivals chunks) = (s', evs) ->
  npend evs = msg_ctl fs ++ [EMsg (msg_type ws_TypeNone fs) (zlen (msg_payload fs)) (msg_payload fs) eNone] /\
  St s' /\ sstream s' = R /\ w_rpend s' = None /\ w_state s' = w_state s.
Proof. exact async_message_any_segmentation. Qed.
Print Assumptions C06_async_message_any_segmentation.

(* Non-vacuity: the premises hold for the fragmented "hello!" with a Ping inside, delivered to a fresh stream in three
   awkward pieces, and the conclusion is the concrete message. *)
Definition demo_frames : list (list Z) := [[1; 2; 104; 101]; [137; 1; 9]; [0; 3; 108; 108; 111]; [128; 1; 33]].
Example C06_whole_message_premises :
  let s := ws_init 1024 [[1;2;3;4]] in
  let chunks := [ztake 3 bytes_in; zsub 3 8 bytes_in; zdrop 8 bytes_in] in
  St s /\ w_rpend s = None /\ Forall bytes chunks /\
  pseq (c_max (w_codec s)) demo_frames (sstream s ++ concat chunks) [] /\ frag_seq false demo_frames = true /\
  msg_ctl demo_frames = [ECtl 9 [9]] /\ msg_payload demo_frames = [104;101;108;108;111;33] /\
  msg_type ws_TypeNone demo_frames = 1.
Proof.
  cbv zeta. destruct (St_init 1024 [[1;2;3;4]] ltac:(unfold WsFrame.two63; lia)) as (HSt & Hrp & Hss).
  split; [exact HSt|]. split; [exact Hrp|]. split.
  - repeat constructor; unfold is_byte; lia.
  - split; [|vm_compute; repeat split; reflexivity].
    rewrite Hss. repeat (econstructor; [vm_compute; reflexivity|]). constructor.
Qed.
