(* C12 -- UDP datagram boundaries, addressing, multicast membership and the peer's reported settings.
   Model/Mcast.v: (a) the read/write paths of the multicast peer (socket.go RecvFrom/SendTo result mapping,
   multicast/peer.go AsyncRead/asyncReadNow/scheduleRead/SetAsyncReadBuffer/AsyncWrite) over a kernel receive queue of
   whole datagrams; (b) the peer's cached settings against the socket options, setters that may fail, the constructor as
   coded; (c) the kernel's membership store with IP_MULTICAST_ALL off - an environment model.
   PARTIAL: (c) and the queue semantics of (a) are models of the KERNEL, validated by the correspondence run on real
   sockets, not proved about it; packetConn (packet.go) has the same structure and is exercised by the loop tests only;
   IPv6 is not supported by the peer. *)
From Sonic Require Import Base.Prelude Base.ListLemmas Model.Mcast Proofs.McastProofs.
Local Open Scope Z_scope.

(* Every history of arrivals, reads (inline or deferred), buffer re-designations, polls and writes: the datagrams that
   arrived are, in order, those consumed by the completed reads - one whole datagram per read callback - followed by the
   kernel queue. *)
Theorem C12_one_datagram_per_read_all_histories : forall ops, dinv (drun ds_init ops).
Proof. intros ops. apply drun_inv. split; [reflexivity|apply le_n]. Qed.
Print Assumptions C12_one_datagram_per_read_all_histories.

(* A read that completes delivers exactly the oldest queued datagram: its bytes truncated to the buffer - the one
   designated last for a deferred read -, its length and its sender. *)
Theorem C12_read_delivers_oldest_datagram_exactly : forall s o e,
  dlog (dstep s o) = e :: dlog s -> (exists cb err n src data, e = DRead cb err n src data) ->
  exists d rest buflen, q s = d :: rest /\ q (dstep s o) = rest /\ read_ok e d buflen /\
    (match o with DAsyncRead b _ => buflen = b | _ => buflen = rbuf s end).
Proof.
  intros s o e Hl (cb0 & err & n & src & data & He).
  destruct s as [qs b0 rp lg ar], o as [d|b cb|b| |dst data0]; cbn [dstep q rbuf rpend dlog arrived] in *.
  - (* DArrive: the log does not grow *) destruct (cons_neq _ _ Hl).
  - (* DAsyncRead *) destruct qs as [|d rest]; [destruct (cons_neq _ _ Hl)|].
    exists d, rest, b. destruct (complete_read_log Hl). auto.
  - (* DSetBuf *) destruct (cons_neq _ _ Hl).
  - (* DPoll *)
    destruct rp as [cb|]; [|destruct (cons_neq _ _ Hl)]. destruct qs as [|d rest]; [destruct (cons_neq _ _ Hl)|].
    exists d, rest, b0. destruct (complete_read_log Hl). auto.
  - (* DWrite: the new entry is no read *) subst e. discriminate.
Qed.
Print Assumptions C12_read_delivers_oldest_datagram_exactly.

Theorem C12_write_emits_one_datagram : forall s dst data,
  dlog (dstep s (DWrite dst data)) = DSent dst data :: dlog s /\ q (dstep s (DWrite dst data)) = q s.
Proof. split; reflexivity. Qed.
Print Assumptions C12_write_emits_one_datagram.

(* Settings: TTL() and All() equal the socket's after every history of setters, failed ones included; Loop() equals it
   from the first successful SetLoop on ... *)
Theorem C12_ttl_all_equal_kernel : forall ops k, k_ttl k = 1 -> ttl_all_ok (fold_left sstep ops (peer_new k)).
Proof.
  intros ops k Hk. apply fold_left_inv; [intros s o; apply sstep_sync|]. split; [symmetry; exact Hk|reflexivity].
Qed.
Print Assumptions C12_ttl_all_equal_kernel.

Theorem C12_loop_equal_kernel_after_set : forall st v ops, loop_ok (fold_left sstep ops (sstep st (SSetLoop v true))).
Proof. intros st v ops. apply fold_left_inv; [intros s o; apply sstep_sync|]. destruct st. reflexivity. Qed.
Print Assumptions C12_loop_equal_kernel_after_set.

(* ... but NOT at construction: GetMulticastLoop reports the opposite of IP_MULTICAST_LOOP (known finding; the existing
   test TestUDPPeerIPv4_SetLoop1 asserts the wrong default, so it cannot be repaired without editing the suite). *)
Theorem C12_loop_at_construction_refuted : ~ loop_ok (peer_new k_default).
Proof. unfold loop_ok. cbn. discriminate. Qed.
Print Assumptions C12_loop_at_construction_refuted.

(* Membership (environment model): a successful Join delivers the group's traffic from every source; blocking a source
   stops exactly that source; a source-specific join delivers exactly that source; calls on one group never affect another. *)
Theorem C12_join_delivers : forall l g src l', gstep l (GJoin g) = (l', 0) -> delivers l' g src = true.
Proof.
  intros l g src l'. cbn. destruct (mfind g l); intros H; inversion H; subst. unfold delivers. rewrite mfind_head; reflexivity.
Qed.
Print Assumptions C12_join_delivers.

Theorem C12_block_stops_source : forall l g s l', gstep l (GBlock g s) = (l', 0) -> delivers l' g s = false.
Proof.
  intros l g s l' H. unfold delivers. rewrite (src_op_add_ok l g true s l' H). cbn. rewrite Z.eqb_refl. reflexivity.
Qed.
Print Assumptions C12_block_stops_source.

Theorem C12_source_join_exact : forall l g s l',
  mfind g l = None -> gstep l (GJoinSource g s) = (l', 0) -> forall src, delivers l' g src = (src =? s).
Proof.
  intros l g s l' Hn H src. unfold delivers. rewrite (src_op_add_ok l g false s l' H), Hn. cbn. apply orb_false_r.
Qed.
Print Assumptions C12_source_join_exact.

(* the kernel's quirk (environment): a FAILED LeaveSource on an any-source membership switches it to a source-specific one
   without sources - delivery stops although the call reported an error (Linux ip_mc_source); observed on the real kernel
   by the correspondence run *)
Theorem C12_env_failed_leavesource_can_stop_delivery :
  let l := fst (gstep [] (GJoin 1)) in
  let r := gstep l (GLeaveSource 1 7) in
  snd r = 1 /\ delivers l 1 7 = true /\ delivers (fst r) 1 7 = false.
Proof. vm_compute. auto. Qed.
Print Assumptions C12_env_failed_leavesource_can_stop_delivery.

Theorem C12_other_groups_unaffected : forall l o l' c h src,
  gstep l o = (l', c) ->
  (match o with GJoin g | GLeave g | GJoinSource g _ | GLeaveSource g _ | GBlock g _ | GUnblock g _ => h <> g end) ->
  delivers l' h src = delivers l h src.
Proof.
  intros l o l' c h src H Hn. unfold delivers. replace l' with (fst (gstep l o)) by (rewrite H; reflexivity).
  (* the four source calls are src_op *)
  destruct o as [g|g|g s|g s|g s|g s]; cbn [gstep]; try (rewrite mfind_src_op by exact Hn; reflexivity).
  - (* GJoin *) destruct (mfind g l); cbn [fst]; [|rewrite mfind_tail by exact Hn]; reflexivity.
  - (* GLeave *) destruct (mfind g l); cbn [fst]; [rewrite mfind_mremove by exact Hn|]; reflexivity.
Qed.
Print Assumptions C12_other_groups_unaffected.

(* Non-vacuity: two datagrams queued, a 3-byte buffer truncates the first, the second is read by a deferred read into a
   buffer re-designated while pending. *)
Example C12_demo :
  let s := drun ds_init [DArrive (mkdg 1 [1;2;3;4;5]); DArrive (mkdg 2 [9]); DAsyncRead 3 10; DAsyncRead 8 11; DAsyncRead 8 12;
                         DSetBuf 2; DArrive (mkdg 1 [6;7;8]); DPoll] in
  rev (dlog s) = [DRead 10 0 3 1 [1;2;3]; DRead 11 0 1 2 [9]; DRead 12 0 2 1 [6;7]] /\ q s = [].
Proof. vm_compute. auto. Qed.
