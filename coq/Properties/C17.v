(* C17 -- a WebSocket read and write in flight together.
   Model/WsAsync.v is a focused model of the layers whose interplay decides the property: the AsyncAdapter's single write
   reactor (every write is first deferred to the poller; AsyncWriteAll (re)initialises the reactor), CodecConn/ByteBuffer
   asynchronous write (encode into dst, write all of dst, consume), the Stream's asynchronous flush chain with the callers
   waiting for a flush in flight, AsyncWrite, and the read path AsyncNextMessage -> AsyncNextFrame -> AsyncFlush ->
   asyncNextFrame with the Pong a Ping queues.  Peer events, application calls and polls come in any order; a poll
   accepts any number of bytes per write call (partial writes).  Frames are opaque byte strings here (C16), message
   reassembly and the close handshake are C06/C08.
   PARTIAL: frames are opaque and only the Active / ClosedByUs part of the stream state is in this model; fuel exhaustion
   of the model is reported by the run. *)
From Sonic Require Import Base.Prelude Base.ListLemmas Model.WsAsync Proofs.WsAsyncProofs.
Local Open Scope Z_scope.

Theorem C17_invariant_every_step : forall s o, cinv [] s -> cinv [] (wastep s o).
Proof. intros s o H. exact (proj1 (wastep_ok False s o (conj H (False_ind _)))). Qed.
Print Assumptions C17_invariant_every_step.

(* Every history: the bytes on the wire are a prefix of the frames in the order they were queued (never interleaved,
   never repeated, whatever the partial writes); every completion registered with a flush - the continuation of a read,
   or the callback of AsyncWrite / AsyncWriteFrame / AsyncFlush / AsyncClose - has run exactly once or is still held by
   the flush in flight: none dropped, none twice. *)
Theorem C17_wire_in_order_and_callbacks_exactly_once : forall ops,
  let s := warun (wa_init true) ops in
  (exists rest, a_all s = a_wire s ++ rest) /\
  (forall k, cnt k (a_fstart s) = cnt k (a_fdone s) + cnt k (outstanding s)).
Proof.
  intros ops s. destruct (reach_ok ops) as [H _]. fold s in H. split.
  - pose proof (v_wire H) as Hwire. destruct (a_wr s) as [n|]; destruct Hwire as [Hdst Hwire].
    + exists (zdrop n (a_dst s) ++ concat (a_pending s)).
      rewrite (v_all H), Hwire, <- !app_assoc. f_equal. rewrite app_assoc, ztake_zdrop_split. reflexivity.
    + exists (concat (a_pending s)). rewrite (v_all H), Hdst, Hwire. reflexivity.
  - intros k. rewrite (v_cnt H k). cbn [cnt]. apply Z.add_0_r.
Qed.
Print Assumptions C17_wire_in_order_and_callbacks_exactly_once.

(* A read in flight is never lost: for every history, while an AsyncNextMessage is in flight either the adapter's read reactor
   is registered with the poller, or the read's continuation is held by the flush in flight (as its completion or as a waiter)
   - and by the theorem above that continuation runs exactly once when the flush completes.  Neither direction starves the
   other. *)
Theorem C17_read_in_flight_is_never_lost : forall ops,
  let s := warun (wa_init true) ops in
  a_fuel_out s = false -> a_rd s <> None -> a_rwait s = true \/ 0 < cnt KRead (outstanding s).
Proof.
  intros ops s X Y. destruct (proj2 (reach_ok ops) I X Y) as [Z|Z]; [left; exact Z|right].
  cbn [cnt] in Z. rewrite Z.add_0_r in Z. exact Z.
Qed.
Print Assumptions C17_read_in_flight_is_never_lost.

(* The structure before the repair is refuted: the application write replaces the Pong flush in the adapter and the
   continuation of the read is lost for good. *)
Theorem C17_unserialised_flush_refuted :
  let s := warun (wa_init false)
             [WaRead 1 70000; WaPeer 9 [7]; WaPoll 1000; WaWrite 100 [1; 2; 3]; WaPoll 1000; WaPoll 1000; WaPoll 1000;
              WaPeer 1 [65]; WaPoll 1000; WaPoll 1000; WaPoll 1000] in
  a_rd s = Some (1, 70000) /\ a_rwait s = false /\ outstanding s = [] /\ a_wr s = None /\ a_inq s = [(1, [65])] /\
  map (fun e => fst (fst e)) (a_log s) = [100].
Proof. vm_compute. repeat split; reflexivity. Qed.
Print Assumptions C17_unserialised_flush_refuted.

(* Non-vacuity: the same script on the repaired structure, with the transport taking 2 bytes per write call: both callbacks
   run, the message is delivered, the wire carries the Pong then the application frame. *)
Example C17_demo :
  let s := warun (wa_init true)
             [WaRead 1 70000; WaPeer 9 [7]; WaPoll 2; WaWrite 100 [1; 2; 3]; WaPoll 2; WaPoll 2; WaPoll 2; WaPoll 2; WaPoll 2; WaPoll 2;
              WaPeer 1 [65]; WaPoll 2; WaPoll 2] in
  rev (a_log s) = [(100, 0, []); (1, 1, [65])] /\ a_wire s = [138; 1; 7; 130; 3; 1; 2; 3] /\ a_rd s = None /\ a_fuel_out s = false.
Proof. vm_compute. repeat split; reflexivity. Qed.

(* Non-vacuity of the never-lost theorem: while the Pong a Ping triggered is still being written (2 of its 3 bytes taken), the
   read is in flight, the read reactor is not armed, and the read's continuation is the completion of the flush in flight. *)
Example C17_read_waits_for_the_pong_flush :
  let s := warun (wa_init true) [WaRead 1 70000; WaPeer 9 [7]; WaPoll 2] in
  a_rd s = Some (1, 70000) /\ a_rwait s = false /\ outstanding s = [KRead] /\ a_fuel_out s = false /\ cnt KRead (outstanding s) = 1.
Proof. vm_compute. repeat split; reflexivity. Qed.
