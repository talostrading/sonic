(* C01 -- exactly-once completion of every asynchronous operation.
   Model/Loop.v mirrors /repo/file.go (asyncRead/asyncReadNow/scheduleRead/onRead and the write twins, Cancel, Close),
   /repo/internal/poll_linux.go (setRW, DelRead, DelWrite, Poll with its batch loop) and /repo/io.go, together with a model
   of the kernel objects (socket, FIFO ends, regular file).  The batch epoll_wait returned is an input of the model, so
   every theorem below quantifies over all batches, masks and handler programs.  The whole-history statement (each
   started operation's callback appears exactly once in the trace, Cancel completes each in-flight operation once with
   the cancellation error, nothing of an object runs after its Close) is the extracted ledger oracle Spec/OpLedger.v,
   run on the model's trace and on the implementation's trace of every script; the theorems are the per-step facts that
   make it hold.  "Never twice" is proved over whole histories (C01_never_twice_over_all_histories, Proofs/LoopOnce.v).
   PARTIAL: "never zero times" over whole histories (every operation of a polled, open object eventually completes) is
   proved per poll (C01_ready_read_is_dispatched) and judged by the ledger, not proved as one liveness statement. *)
From Sonic Require Import Base.Prelude Model.Loop Proofs.LoopMachine Proofs.LoopProofs Proofs.LoopClosed Proofs.LoopOnce.
Local Open Scope Z_scope.

(* Never twice: the poller removes the interest before it dispatches, and a batch entry whose object has no interest
   left (completed, cancelled or closed by an earlier handler of the same batch) dispatches nothing and changes nothing,
   whatever mask the kernel reported. *)
Theorem C01_stale_batch_entry_dispatches_nothing : forall s i o mask,
  lookup i (l_objs s) = Some o -> o_evR o = false -> o_evW o = false ->
  fst (poll_entry s (0, i, mask)) = s /\
  (forall it, In it (snd (poll_entry s (0, i, mask))) -> it = IPollWrite i) /\
  write_event s i xNil = (s, []).
Proof.
  intros s i o mask Hl HR HW. unfold poll_entry, write_event. cbn [Z.eqb]. rewrite Hl, HR, HW.
  rewrite andb_false_r. cbn [fst snd app].
  split; [reflexivity|]. split; [|reflexivity].
  intros it Hin. destruct (has mask mOUT || (has mask mHUP || has mask mERR)); cbn in Hin.
  - destruct Hin as [<-|[]]. reflexivity.
  - contradiction.
Qed.
Print Assumptions C01_stale_batch_entry_dispatches_nothing.

(* After Close returns the object has no interest registered (so, by the theorem above, no batch entry can invoke a
   callback of it) and Close itself invokes nothing. *)
Theorem C01_close_leaves_no_interest : forall s i o,
  lookup i (l_objs s) = Some o -> o_closed o = false ->
  exists o', lookup i (l_objs (fst (do_action s (AClose i)))) = Some o' /\
             o_closed o' = true /\ o_evR o' = false /\ o_evW o' = false /\ snd (do_action s (AClose i)) = [].
Proof.
  intros s i o Hl Hc. rewrite (do_action_close Hl), Hc. exists (shut o). split; [apply lookup_update_same|cbn; auto].
Qed.
Print Assumptions C01_close_leaves_no_interest.

(* ... and this holds in every reachable state: for every script, every handler program and every batch, a closed object has
   no interest registered, so no batch entry - stale or not - invokes a callback of it or changes anything. *)
Theorem C01_no_poller_callback_after_close_all_histories : forall ops s i o mask,
  cl_inv s -> lookup i (l_objs (lrun s ops)) = Some o -> o_closed o = true ->
  fst (poll_entry (lrun s ops) (0, i, mask)) = lrun s ops /\
  (forall it, In it (snd (poll_entry (lrun s ops) (0, i, mask))) -> it = IPollWrite i) /\
  write_event (lrun s ops) i xNil = (lrun s ops, []).
Proof.
  intros ops s i o mask Hi Hl Hc. pose proof (lrun_inv cl_inv lstep_cl ops s Hi) as Hinv.
  destruct (Forall_lookup clok Hinv Hl Hc) as [A B].
  apply (C01_stale_batch_entry_dispatches_nothing _ _ o); assumption.
Qed.
Print Assumptions C01_no_poller_callback_after_close_all_histories.

Theorem C01_initial_state_has_no_closed_interest : cl_inv loop_init.
Proof.
  constructor.
Qed.
Print Assumptions C01_initial_state_has_no_closed_interest.

(* The system-call loop of asyncReadNow/asyncWriteNow ends in exactly one of: one completion (one callback item), the
   interest registered again (deferred to the poller), or - excluded by the correspondence run - fuel exhaustion. *)
Theorem C01_io_attempt_completes_once_or_rearms : forall fuel s i w p wrapped,
  (exists e n, snd (io_now fuel s i w p wrapped) = [IInvoke (op_cb p) e n wrapped]) \/
  (snd (io_now fuel s i w p wrapped) = [] /\
   (armed (fst (io_now fuel s i w p wrapped)) i w \/ l_fuel_out (fst (io_now fuel s i w p wrapped)) = true \/
    lookup i (l_objs s) = None)).
Proof.
  intros fuel s i w p wrapped.
  destruct (lookup i (l_objs s)) as [o|] eqn:Hl.
  - destruct (io_now_eff fuel s i w p wrapped o Hl) as (o' & d & fo & items & E & B). rewrite E. cbn [fst snd].
    destruct (ends_outcome s i B) as [H|[H1 [H2|H2]]]; auto.
  - right. rewrite (io_now_none Hl). split; [reflexivity|auto].
Qed.
Print Assumptions C01_io_attempt_completes_once_or_rearms.

(* Never zero times: a deferred read whose descriptor the batch reports with IN, HUP or ERR (peer data, close, reset,
   hang-up of a FIFO that only has a read interest) is dispatched by that poll: one callback, or re-armed. *)
Theorem C01_ready_read_is_dispatched : forall s i o p mask,
  lookup i (l_objs s) = Some o -> o_evR o = true -> o_rd o = Some p ->
  has mask mIN || has mask mHUP || has mask mERR = true ->
  exists items, snd (poll_entry s (0, i, mask)) = items ++ (if has mask mOUT || (has mask mHUP || has mask mERR) then [IPollWrite i] else []) /\
    ((exists e n wr, items = [IInvoke (op_cb p) e n wr]) \/
     (items = [] /\ (armed (fst (poll_entry s (0, i, mask))) i false \/ l_fuel_out (fst (poll_entry s (0, i, mask))) = true))).
Proof.
  intros s i o p mask Hl HR Hrd Hm. unfold poll_entry. cbn [Z.eqb]. rewrite Hl, HR.
  replace (has mask mIN || (has mask mHUP || has mask mERR)) with true by (rewrite <- Hm, orb_assoc; reflexivity).
  cbn [andb].
  destruct (del_on_event_eff s i o false xNil HR) as (o' & d & fo & items & E & B). rewrite E. cbn [fst snd].
  exists items. split; [reflexivity|].
  (* the read reactor holds p, so it is p that ends *)
  destruct B as [Hs|p' wr o1 d1 fo1 items1 Hs B]; cbn [slot clr with_rd o_rd] in Hs; rewrite Hrd in Hs; [discriminate|].
  injection Hs as <-.
  destruct (ends_outcome s i B) as [(e & n & H)|H]; [left; exists e, n, wr; exact H|right; exact H].
Qed.
Print Assumptions C01_ready_read_is_dispatched.

(* Cancel completes the in-flight read exactly once, with the cancellation error and the progress made so far, and
   removes its interest (then handles the write side).  ctl_ok: the descriptor is one epoll knows; if it was closed
   underneath the object the callback still runs exactly once, but with the poller's error instead. *)
Theorem C01_cancel_completes_read_once : forall s i o p,
  lookup i (l_objs s) = Some o -> o_evR o = true -> o_rd o = Some p -> ctl_ok o = true ->
  snd (do_action s (ACancel i)) = [IInvoke (op_cb p) xCancelled (op_sofar p) (is_pkt o && op_wrapped p); ICancelWrites i] /\
  exists o', lookup i (l_objs (fst (do_action s (ACancel i)))) = Some o' /\ o_evR o' = false.
Proof.
  intros s i o p Hl HR Hrd Hk.
  cbn [do_action]. rewrite Hl, HR, Hk.
  unfold del_interest. rewrite HR. cbn [fst snd].
  unfold on_event. cbn [with_rd o_rd o_evR]. rewrite Hrd. change (negb (xCancelled =? xNil)) with true. cbv iota.
  cbn [fst snd app]. split; [reflexivity|]. eexists. split; [apply lookup_set_obj|]. reflexivity.
Qed.
Print Assumptions C01_cancel_completes_read_once.

(* Non-vacuity: two sockets with deferred reads, both ready in one batch; the first handler cancels the second object:
   both callbacks run exactly once (the second with the cancellation error) and its batch entry is then stale. *)
Example C01_demo :
  let s := lrun loop_init
    [LObj 1 KSock; LObj 2 KSock; LProg 10 [ACancel 2]; LProg 20 [];
     LDepth 0; LAct (AStart false false 1 4 10); LAct (AStart false false 2 4 20);
     LPeer 1 (PData 4); LPeer 2 (PData 4); LPoll [(0, 1, 1); (0, 2, 1)]] in
  filter (fun e => match e with LCb _ _ _ _ => true | _ => false end) (rev (l_log s)) = [LCb 10 0 4 1; LCb 20 2 0 2]
  /\ l_pending s = 0 /\ l_fuel_out s = false.
Proof. vm_compute. auto. Qed.

(* NEVER TWICE, over whole histories.  c is a callback identifier the script uses for read/write/accept/datagram operations
   only ([lop_ok c]: no timer and no posted handler carries it).  [starts c s] / [cbs c s]: how many operations were started
   with c / how many times a callback c ran, in the whole trace; [pendc c s]: operations holding c that are registered with
   the poller right now.  For EVERY script - any objects (sockets, FIFO ends, regular files, listeners, packet conns,
   descriptors closed underneath), any handler programs (re-issue, cancel, close, re-arm itself or another object), any
   batches and masks, any peer behaviour, inline and deferred paths - unless the script itself starts an operation on a
   direction that still has one deferred in flight (outside the library's contract; [l_overlap] records it):
   completions + operations still in flight never exceed the operations started.  With one identifier per operation this
   is "no completion callback ever runs twice". *)
Theorem C01_never_twice_over_all_histories : forall c, c <> 0 -> forall ops,
  Forall (lop_ok c) ops ->
  let s := lrun loop_init ops in
  l_overlap s = false -> cbs c s + pendc c s <= starts c s /\ cbs c s <= starts c s.
Proof. exact completions_never_exceed_starts. Qed.
Print Assumptions C01_never_twice_over_all_histories.

(* Non-vacuity: the demo script above keeps the contract and each of its two operations completed exactly once; and the
   contract matters: a second read started while the first is deferred makes the later callback run twice - the flag is set. *)
Example C01_never_twice_demo :
  let ops := [LObj 1 KSock; LObj 2 KSock; LProg 10 [ACancel 2]; LProg 20 [];
              LDepth 0; LAct (AStart false false 1 4 10); LAct (AStart false false 2 4 20);
              LPeer 1 (PData 4); LPeer 2 (PData 4); LPoll [(0, 1, 1); (0, 2, 1)]] in
  let s := lrun loop_init ops in
  Forall (lop_ok 10) ops /\ Forall (lop_ok 20) ops /\ l_overlap s = false /\
  starts 10 s = 1 /\ cbs 10 s = 1 /\ starts 20 s = 1 /\ cbs 20 s = 1 /\ pendc 10 s = 0 /\ pendc 20 s = 0.
Proof. cbv zeta. split; [repeat constructor|]. split; [repeat constructor|]. vm_compute. repeat split; reflexivity. Qed.

Example C01_overlapping_starts_break_it :
  let s := lrun loop_init [LObj 1 KSock; LAct (AStart false false 1 4 10); LPeer 1 (PData 8);
                           LAct (AStart false false 1 4 11); LPoll [(0, 1, 1)]] in
  l_overlap s = true /\ starts 11 s = 1 /\ cbs 11 s = 2.
Proof. vm_compute. repeat split; reflexivity. Qed.
