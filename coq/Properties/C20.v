(* C20 -- out-of-order slot retrieval addresses exactly the bytes saved.
   Model/Slots.v mirrors util/fenwick_tree.go, slot_offsetter.go, sequenced_slots.go and slot_sequencer.go and is composed
   with the ByteBuffer model (whose save-area behaviour is C09's refinement theorem) and the regenerated OffsetSlot.
   PARTIAL: the theorems below cover the sorted container (Push/Pop against a finite map, duplicates and the slot limit
   without disturbing stored entries), OffsetSlot, and the Fenwick tree: unit responses and the prefix-sum contract for
   every history of in-range Adds with arbitrary deltas.  The two Fenwick statements are instances, for sizes <= 64, of
   fw_prefix_sums_all, which holds for every size (the unit response is the history of one Add).
   The end-to-end statement "the slot popped for a number addresses the bytes saved under it, whatever was discarded
   before" is carried for all explored histories by the correspondence run and the extracted ParkedMap oracle; its Coq
   proof (virtual-coordinate invariant over the whole stack) is not done. *)
From Sonic Require Import Base.Prelude Gen.Slot Model.Slots Proofs.SlotsProofs Proofs.FenwickLinear.
Local Open Scope Z_scope.

Theorem C20_container_push : forall maxSlots l seq slot l' ok err,
  ssorted l -> ss_push maxSlots l seq slot = (l', ok, err) ->
  ssorted l' /\
  match ss_find l seq with
  | Some _ => l' = l /\ ok = false /\ err = false
  | None =>
      if zlen l >=? maxSlots then l' = l /\ ok = false /\ err = true
      else ok = true /\ err = false /\ zlen l' = zlen l + 1 /\ ss_find l' seq = Some slot /\
           forall x, x <> seq -> ss_find l' x = ss_find l x
  end.
Proof.
  intros maxSlots l seq slot l' ok err Hs. rewrite (ss_push_eq _ _ _ _ Hs).
  destruct (ss_find l seq) eqn:Hf; [intros [= <- <- <-]; auto|].
  destruct (zlen l >=? maxSlots); intros [= <- <- <-]; [auto|].
  destruct (insert_spec l seq slot Hs Hf) as (H1 & H2 & H3 & H4).
  repeat split; (assumption || lia).
Qed.
Print Assumptions C20_container_push.

Theorem C20_container_pop : forall l seq l' r,
  ssorted l -> ss_pop l seq = (l', r) ->
  ssorted l' /\ r = ss_find l seq /\
  match r with
  | Some _ => ss_find l' seq = None /\ (forall x, x <> seq -> ss_find l' x = ss_find l x) /\ zlen l' = zlen l - 1
  | None => l' = l
  end.
Proof.
  intros l seq l' r Hs. rewrite (ss_pop_eq _ _ Hs).
  destruct (ss_find l seq) as [s|] eqn:Hf; intros [= <- <-]; [|auto].
  destruct (remove_spec l seq s Hs Hf) as (H1 & H2 & H3 & H4).
  repeat split; (assumption || lia).
Qed.
Print Assumptions C20_container_pop.

Theorem C20_offset_slot : forall offset slot,
  0 <= offset <= Slot_Index slot ->
  OffsetSlot offset slot = mkSlot (Slot_Index slot - offset) (Slot_Length slot).
Proof.
  intros offset slot H. unfold OffsetSlot. destruct (offset <? 0) eqn:E1; [lia|].
  destruct (offset >? Slot_Index slot) eqn:E2; [lia|]. reflexivity.
Qed.
Print Assumptions C20_offset_slot.

Theorem C20_fenwick_unit_response_partial : forall n i q,
  0 <= n <= 64 -> 0 <= i < n -> 0 <= q < n -> fw_unit_ok n i q = true.
Proof.
  (* the history of the one Add (i, 1) *)
  intros n i q _ Hi Hq. unfold fw_unit_ok.
  destruct (fw_prefix_sums_all n [(i, 1)]) as (d & E & _ & Hsum); [constructor; [exact Hi|constructor]|].
  cbn [fw_adds] in E. destruct (fw_add (fw_new n) i 1) as [t|]; [injection E as ->|discriminate].
  rewrite (Hsum q Hq). cbn [prefix_of]. lia.
Qed.
Print Assumptions C20_fenwick_unit_response_partial.

(* Every history of in-range Adds with arbitrary deltas: nothing panics, and SumUntil q is the sum of the deltas added
   at indices <= q.  (The bound on the size is not needed: fw_prefix_sums_all.) *)
Theorem C20_fenwick_prefix_sums_partial : forall n adds,
  0 <= n <= 64 -> Forall (fun p => 0 <= fst p < n) adds ->
  exists d, fw_adds (fw_new n) adds = Ok d /\ length d = Z.to_nat n /\
            forall q, 0 <= q < n -> fw_sum_until d q = Ok (prefix_of adds q).
Proof. intros n adds _. apply fw_prefix_sums_all. Qed.
Print Assumptions C20_fenwick_prefix_sums_partial.

Example C20_fenwick_history_demo :
  match fw_adds (fw_new 10) [(3, 5); (0, -2); (9, 7); (3, 1); (6, 100)] with
  | Ok d => map (fun q => fw_sum_until d q) [0; 2; 3; 5; 6; 9]
  | Panic => []
  end = [Ok (-2); Ok (-2); Ok 4; Ok 4; Ok 104; Ok 111]
  /\ map (prefix_of [(3, 5); (0, -2); (9, 7); (3, 1); (6, 100)]) [0; 2; 3; 5; 6; 9] = [-2; -2; 4; 4; 104; 111].
Proof. vm_compute. split; reflexivity. Qed.

(* Non-vacuity: five packets parked out of order and popped in another order; every pop returns the bytes saved under
   its number and the save area ends empty. *)
Definition park (seq : Z) (p : list Z) : sqop := SPark seq p 512.
Fixpoint sqrun (s : sq) (ops : list sqop) : list sqret :=
  match ops with
  | [] => []
  | o :: rest => match sqstep s o with Ok (s', r) => r :: sqrun s' rest | Panic => [] end
  end.
Example C20_demo :
  sqrun (sq_init 10 1024)
    [park 2 [21;22;23;24]; park 1 [11;12]; park 4 [41]; park 3 [31;32;33]; SPop 3; SPop 1; park 1 [13]; SPop 4; SPop 2; SPop 1]
  = [SRPush true false; SRPush true false; SRPush true false; SRPush true false;
     SRPop true [31;32;33]; SRPop true [11;12]; SRPush true false; SRPop true [41]; SRPop true [21;22;23;24]; SRPop true [13]].
Proof. vm_compute. reflexivity. Qed.
