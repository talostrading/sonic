(* C09 -- ByteBuffer behaves as three adjacent FIFO regions.
   Model/ByteBuffer.v mirrors /repo/byte_buffer.go (hand-written, tied to the code by the correspondence run on every
   check); Spec/ThreeFifo.v is the abstract specification (three lists + room) and, extracted, the oracle that judges the
   implementation's traces.  env_ok/wf_hist state the only side conditions: arguments are int64 values, Reserve's
   request fits in memory, the capacity the allocator reports is at least what append guarantees, and a caller who
   claims n bytes has written n bytes. *)
From Sonic Require Import Base.Prelude Model.ByteBuffer Spec.ThreeFifo Proofs.ByteBufferProofs.
Local Open Scope Z_scope.

(* Every operation, on every state satisfying the invariant and for every integer argument, behaves exactly like the
   three-FIFO specification (regions and result), and re-establishes the invariant. *)
Theorem C09_step_refines_spec : forall s o, binv s -> env_ok s o -> refines_at s o.
Proof.
  intros s o Hi He. destruct (normal_form s Hi) as (a & b & c & Hs & Hcap & Hc63).
  set (cap := bcap s) in *. set (ob := oneb s) in *. clearbody cap ob. subst s.
  destruct o; cbn [env_ok] in He;
    lazymatch goal with
    | |- refines_at _ (OReserve _ _) => apply ref_reserve
    | |- refines_at _ (OCommit _) => apply ref_commit
    | |- refines_at _ (OConsume _) => apply ref_consume
    | |- refines_at _ (OSave _) => apply ref_save
    | |- refines_at _ (OSavedSlot _ _) => apply ref_savedslot
    | |- refines_at _ (ODiscard _ _) => apply ref_discard
    | |- refines_at _ (ODiscardAll) => apply ref_discardall
    | |- refines_at _ (OReset) => apply ref_reset
    | |- refines_at _ (ORead _) => apply ref_read
    | |- refines_at _ (OReadByte) => apply ref_readbyte
    | |- refines_at _ (OReadFrom _ _ _) => apply ref_readfrom
    | |- refines_at _ (OUnreadByte) => apply ref_unreadbyte
    | |- refines_at _ (OWrite _ _) => apply ref_write
    | |- refines_at _ (OWriteTo _) => apply ref_writeto
    | |- refines_at _ (OAsyncWriteTo _ _) => apply ref_asyncwriteto
    | |- refines_at _ (OPrepareRead _) => apply ref_prepareread
    | |- refines_at _ (OClaim _ _) => apply ref_claim
    | |- refines_at _ (OClaimFixed _ _) => apply ref_claimfixed
    | |- refines_at _ (OShrinkBy _) => apply ref_shrinkby
    | |- refines_at _ (OShrinkTo _) => apply ref_shrinkto
    | |- refines_at _ (OObserve) => apply ref_observe
    end; assumption.
Qed.
Print Assumptions C09_step_refines_spec.

(* No call panics: negative, zero and oversized arguments are clamped or ignored. *)
Theorem C09_no_panic : forall s o, binv s -> bbstep s o <> Panic.
Proof.
  intros s o Hi. unfold binv in Hi.
  destruct o; cbn [bbstep]; unfold chk;
    repeat match goal with
    | |- context [if ?x then _ else _] => destruct x eqn:?
    | |- context [let '(_, _) := ?x in _] => destruct x eqn:?
    end; try discriminate.
  (* the only guarded slice: ReadFrom advancing wi by the reader's (clamped) count *)
  exfalso. lia.
Qed.
Print Assumptions C09_no_panic.

(* Whole histories over the public API, from any state satisfying the invariant (in particular a fresh buffer):
   the model never panics, every result is the specification's, and the regions are the specification's. *)
Theorem C09_history_refines_spec : forall ops s,
  binv s -> wf_hist s ops -> exists s', corun s (abs s) ops = Some (s', abs s') /\ binv s'.
Proof.
  induction ops as [|o rest IH]; intros s Hi Hw; cbn [corun wf_hist] in *.
  - eauto.
  - destruct Hw as [He Hw].
    destruct (bbstep s o) as [[s1 r]|] eqn:E; [|exfalso; eapply C09_no_panic; eauto].
    destruct (C09_step_refines_spec s o Hi He s1 r E) as (Hi1 & t' & want & Ht & Ha & Hr).
    rewrite Ht, Hr. subst t'. apply IH; assumption.
Qed.
Print Assumptions C09_history_refines_spec.

Theorem C09_fresh_buffer : binv bb_init /\ abs bb_init = tf_init.
Proof. split; [|reflexivity]. unfold binv, bb_init, two63, zlen; cbn. lia. Qed.
Print Assumptions C09_fresh_buffer.

(* The three regions are adjacent and their lengths add up to the buffer length. *)
Theorem C09_lengths_add_up : forall s, binv s ->
  zlen (saved_of s) + zlen (readable_of s) + zlen (pending_of s) = zlen (bmem s) /\
  bmem s = saved_of s ++ readable_of s ++ pending_of s.
Proof.
  intros s Hi. destruct (regions s Hi) as (Hm & Ha & Hb & Hc). unfold binv in Hi. split; [lia|exact Hm].
Qed.
Print Assumptions C09_lengths_add_up.

(* Non-vacuity: a history through reallocation, with all three regions non-empty at the end, satisfies wf_hist. *)
Definition demo : list bbop :=
  [OWrite [1;2;3;4;5;6;7;8] 512; OCommit 6; OSave 2; OSave 1; OClaimFixed 2 [9;10]; ODiscard 0 2;
   OReserve 600 1200; OConsume 1; OPrepareRead 5; OCommit 9223372036854775807; OShrinkTo (-9223372036854775808)].
Example C09_demo_nonvacuous :
  wf_hist bb_init demo /\
  match corun bb_init tf_init demo with
  | Some (s, t) => t = mktf [3] [5;6;7;8;9;10] [] 1193 /\ bcap s = 1200
  | None => False
  end.
Proof. vm_compute. repeat split; try discriminate; auto. Qed.
