(* C05 -- Post is thread-safe, exactly-once, ordered, wakes the loop and never deadlocks.
   Model/PostConc.v is a transition system for /repo/internal/poll_linux.go Post and dispatch with any number of posting
   goroutines, handlers that themselves post, the mutex, the eventfd counter and the atomic pending counter, one
   transition per statement that touches shared state.  A schedule is an arbitrary list of goroutine choices, so
   "for all schedules" is "for all interleavings".  The Go memory model is abstracted: each statement is atomic (the
   mutex and the atomics justify that for the repaired code; the race detector run of the harness checks it). *)
From Sonic Require Import Base.Prelude Model.PostConc Proofs.PostConcProofs.
Local Open Scope Z_scope.

(* The invariant holds in every state of every interleaving: the handlers appended so far are, in append order, the ones
   already run, then the batch being run, then the queue (FIFO, nothing lost, nothing twice); Pending() accounts exactly
   for the queued and the running handlers; the mutex has one holder; whenever something is queued either the eventfd
   counter is positive, or a poster is between its append and its eventfd write, or the loop has drained and not yet
   swapped (no lost wake-up). *)
Theorem C05_invariant_all_interleavings : forall todos nest sched, cinv (crun (cinit todos nest false) sched).
Proof. intros. apply crun_inv. apply cinv_init. Qed.
Print Assumptions C05_invariant_all_interleavings.

Theorem C05_step_preserves_invariant : forall s t s', cinv s -> tstep s t = Some s' -> cinv s'.
Proof. exact tstep_inv. Qed.
Print Assumptions C05_step_preserves_invariant.

(* Handlers posted by one goroutine are appended in the order it posted them (with the FIFO part of the invariant: they
   run in that order). *)
Theorem C05_per_goroutine_order : forall todos nest sched, ord_inv todos (crun (cinit todos nest false) sched).
Proof. intros. apply crun_ord. apply ord_init. Qed.
Print Assumptions C05_per_goroutine_order.

(* Deadlock freedom and wake-up: in every reachable state with work left some goroutine can take a step - Post never
   blocks for ever on the mutex (also from inside a handler), and the loop never sleeps in epoll_wait while a handler is
   queued and nobody is about to signal. *)
Theorem C05_no_deadlock_no_lost_wakeup : forall todos nest sched,
  let s := crun (cinit todos nest false) sched in ~ finished s -> exists t, tstep s t <> None.
Proof. intros. apply progress; [apply crun_inv; apply cinv_init|assumption]. Qed.
Print Assumptions C05_no_deadlock_no_lost_wakeup.

(* Exactly once: when nothing is left to do, every handler appended has run exactly once in append order, Pending() is
   zero, and goroutine i's handlers ran in its posting order. *)
Theorem C05_finished_exactly_once : forall todos nest sched,
  let s := crun (cinit todos nest false) sched in
  finished s ->
  c_exec s = c_enq s /\ c_pend s = 0 /\
  forall i p, nth_error (c_posters s) i = Some p -> nth_error todos i = Some (owned i (c_exec s)).
Proof.
  intros. apply finished_exactly_once; [apply crun_inv; apply cinv_init|apply crun_ord; apply ord_init|assumption].
Qed.
Print Assumptions C05_finished_exactly_once.

(* The structure the code had before the repair (handlers run under the mutex) is refuted: a reachable deadlock. *)
Theorem C05_locked_dispatch_refuted :
  exists sched, let s := crun (cinit [[1]] [(1, [2])] true) sched in
    c_batch s <> [] /\ tstep s TLoop = None /\ forall i, tstep s (TPoster i) = None.
Proof.
  (* the poster completes Post(1); the loop takes the batch and, holding the mutex, starts handler 1, whose Post(2) blocks *)
  exists [TPoster 0; TPoster 0; TPoster 0; TPoster 0; TPoster 0; TLoop; TLoop; TLoop; TLoop; TLoop]%nat.
  vm_compute. split; [discriminate|]. split; [reflexivity|]. intros [|[|i]]; reflexivity.
Qed.
Print Assumptions C05_locked_dispatch_refuted.

(* Non-vacuity: two posters and a handler that posts, under an adversarial interleaving, run to completion. *)
Example C05_demo :
  let sched := [TPoster 0; TPoster 1; TPoster 0; TPoster 0; TPoster 1; TPoster 0; TLoop; TPoster 0; TLoop; TPoster 1; TLoop; TLoop;
                TPoster 1; TPoster 1; TLoop; TLoop; TLoop; TLoop; TLoop; TLoop; TLoop; TLoop; TLoop; TLoop; TLoop; TLoop; TLoop; TLoop;
                TLoop; TLoop; TLoop; TLoop; TLoop; TLoop; TLoop; TLoop; TLoop; TLoop; TLoop; TLoop; TPoster 1; TPoster 1;
                TLoop; TLoop; TLoop; TLoop; TLoop; TLoop; TLoop; TLoop; TLoop; TLoop; TLoop; TLoop; TLoop; TLoop; TLoop; TLoop]%nat in
  let s := crun (cinit [[1]; [2]] [(1, [3])] false) sched in
  map snd (c_exec s) = [1; 2; 3] /\ c_pend s = 0 /\ finished s.
Proof. vm_compute. repeat split; reflexivity. Qed.
