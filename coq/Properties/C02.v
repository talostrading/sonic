(* C02 -- byte-stream fidelity and the ReadAll/WriteAll contract.
   Model/RW.v mirrors the read and write reactors of /repo/file.go (TCP conns from sonic.Dial / accept are files) and
   /repo/async_adapter.go, with the transport in the state: the bytes the peer sent and the object has not read yet, end
   of stream, the bytes the transport accepted, and - for the adapter - an arbitrary script of (count, error) results of
   the wrapped io.ReadWriter.  "All payloads, all buffer sizes, all segmentations, both directions interleaved" is
   therefore "all states and all scripts", which the theorems quantify over.  Ghost state: rws_sent (every byte the peer
   ever sent), the log of callbacks with the bytes each operation moved. *)
From Sonic Require Import Base.Prelude Base.ListLemmas Model.RW Proofs.RWProofs.
Local Open Scope Z_scope.

(* One run of asyncReadNow (any fuel, any transport state, either flavour): the bytes taken from the stream are exactly
   the bytes appended to the caller's buffer, in order; the count kept - and passed to the callback on completion - is
   their number; a nil error on a ReadAll means the buffer is full; on error the count is what was transferred. *)
Theorem C02_read_attempt : forall fuel s p s1 p1 r,
  read_now fuel s p = (s1, p1, r) -> rd_ok p ->
  exists moved,
    rd_filled p1 = rd_filled p ++ moved /\ rws_in s = moved ++ rws_in s1 /\ rd_ok p1 /\
    rd_all p1 = rd_all p /\ rd_len p1 = rd_len p /\ rd_cb p1 = rd_cb p /\
    rws_wire s1 = rws_wire s /\ same_rest s s1 /\
    match r with Done e n => n = rd_sofar p1 /\ (e = eNil -> rd_all p = true -> n = rd_len p) | _ => True end.
Proof. exact @read_now_spec. Qed.
Print Assumptions C02_read_attempt.

Theorem C02_write_attempt : forall fuel s p s1 p1 r,
  write_now fuel s p = (s1, p1, r) -> wr_ok p ->
  exists acc,
    rws_wire s1 = rws_wire s ++ acc /\ ztake (wr_sofar p1) (wr_buf p1) = ztake (wr_sofar p) (wr_buf p) ++ acc /\ wr_ok p1 /\
    wr_all p1 = wr_all p /\ wr_buf p1 = wr_buf p /\ wr_cb p1 = wr_cb p /\
    rws_in s1 = rws_in s /\ same_rest s s1 /\
    match r with Done e n => n = wr_sofar p1 /\ (e = eNil -> wr_all p = true -> n = zlen (wr_buf p)) | _ => True end.
Proof. exact @write_now_spec. Qed.
Print Assumptions C02_write_attempt.

(* Every history (starts of reads and writes of both kinds, polls, peer data, end of stream, any result scripts), under
   the reactors' contract (one read and one write in flight, non-empty buffers):
     - every byte the peer sent is, in order and exactly once, in the buffers of completed reads, in the buffer of the
       read in flight, or still unread: none lost, duplicated or invented;
     - the bytes the transport accepted are exactly the prefixes [0, n) of the completed writes' buffers, in order, then
       the written prefix of the write in flight;
     - for every callback: n is the number of bytes the operation moved, and nil on an *All operation means n = len. *)
Theorem C02_stream_fidelity_all_histories : forall ops fl,
  contracts (rw_init fl) ops ->
  let s := rwrun (rw_init fl) ops in
  rws_sent s = got (rws_log s) ++ rd_part (rws_rd s) ++ rws_in s /\
  rws_wire s = put (rws_log s) ++ wr_part (rws_wr s) /\
  Forall ev_ok (rws_log s).
Proof.
  intros ops fl Hc s. pose proof (rwrun_inv ops (rw_init fl) (inv_init fl) Hc) as Hi.
  exact (conj (inv_sent Hi) (conj (inv_wire Hi) (inv_log Hi))).
Qed.
Print Assumptions C02_stream_fidelity_all_histories.

Theorem C02_step_preserves_invariant : forall s o, inv s -> contract s o -> inv (rwstep s o).
Proof. exact rwstep_inv. Qed.
Print Assumptions C02_step_preserves_invariant.

(* However the transfer is split: a WriteAll that completes without error reports len and the transport received exactly
   the buffer (this is what licenses comparing only the final outcome of large TCP transfers, whose split the kernel
   chooses). *)
Theorem C02_writeall_outcome_independent_of_split : forall fuel s p s1 p1 e n,
  write_now fuel s p = (s1, p1, Done e n) -> wr_sofar p = 0 -> wr_all p = true -> e = eNil ->
  n = zlen (wr_buf p) /\ rws_wire s1 = rws_wire s ++ wr_buf p.
Proof.
  intros fuel s p s1 p1 e n H H0 Ha He. pose proof (zlen_nonneg (wr_buf p)) as Hl.
  destruct (write_now_spec H) as (acc & Hwire & Hext & Hok1 & _ & Hbuf & _ & _ & _ & Hn & Hnil); [unfold wr_ok; lia|].
  specialize (Hnil He Ha). split; [exact Hnil|].
  (* from offset 0 the accepted bytes are the written prefix, and that is the whole buffer *)
  rewrite H0 in Hext. cbn in Hext. rewrite Hwire, <- Hext, Hbuf. f_equal. apply ztake_all. lia.
Qed.
Print Assumptions C02_writeall_outcome_independent_of_split.

(* Non-vacuity: an adapter whose reader returns 2 bytes, then 1, then 3 with an error; a ReadAll of 4 and a Read of 8;
   a WriteAll of 5 split 2 + 0 + 3; and a TCP conn whose ReadAll of 6 sees 4 bytes, would-block, then 5 more. *)
Example C02_demo :
  let a := rwrun (rw_init FAdapter)
    [OPeerData [1;2;3;4;5;6;7;8;9]; ORScript [(2,0); (1,0); (3,9)]; OWScript [(2,0); (0,0); (3,0)];
     ORStart true 4 10; OWStart true [11;12;13;14;15] 20; OPoll; OPoll; OPoll; ORStart false 8 11; OPoll] in
  rev (rws_log a) = [EvR 10 9 4 [1;2;3;4] true 4; EvW 20 0 5 [11;12;13;14;15] true; EvR 11 0 5 [5;6;7;8;9] false 8] /\
  rws_wire a = [11;12;13;14;15] /\
  let f := rwrun (rw_init FFile)
    [OPeerData [1;2;3;4]; ORStart true 6 10; OPoll; OPeerData [5;6;7;8;9]; OPoll; ORStart false 8 11] in
  rev (rws_log f) = [EvR 10 0 6 [1;2;3;4;5;6] true 6; EvR 11 0 3 [7;8;9] false 8] /\ rws_in f = [].
Proof. vm_compute. auto. Qed.
