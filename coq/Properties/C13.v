(* C13 -- no descriptor leaks, no foreign close, owners stay alive.
   Three models: (a) the registry part of the event-loop model (Model/Loop.v: o_reg is membership in
   ioc.pending.static/dynamic, o_evR/o_evW the interests registered with the poller); (b) a descriptor table with
   lowest-free allocation and objects whose Close is guarded by a flag (Model/Ctors.v: listener, packet conn, file,
   adapter, peer, timer); (c) the error paths of every constructor as (allocated, closed) pairs transcribed from /repo.
   PARTIAL: (c) is a transcription - its tie to the code is the /proc/self/fd census of the correspondence run under
   every failure that can be injected without privileges; descriptor-table exhaustion is not injected; the garbage
   collector is not modelled (the GC probes of the run are tests). *)
From Sonic Require Import Base.Prelude Model.Loop Proofs.LoopProofs Proofs.LoopReg Model.Ctors Proofs.CtorsProofs.
Local Open Scope Z_scope.

(* Owners stay alive: in every reachable state of the event loop - any scripts, batches, handler programs - an object with
   a read or write deferred to the poller is in the IO's registry (also after the other direction completed or was
   cancelled). *)
Theorem C13_inflight_implies_registered : forall ops s, reg_inv s -> reg_inv (lrun s ops).
Proof. exact (lrun_inv reg_inv lstep_reg). Qed.
Print Assumptions C13_inflight_implies_registered.

Theorem C13_initially_registered_ok : reg_inv loop_init.
Proof. constructor. Qed.
Print Assumptions C13_initially_registered_ok.

(* No foreign close: with the close-once guard, for every history of creations and (repeated) Closes, live objects own
   distinct open descriptors - a repeated Close never touches the table. *)
Theorem C13_guarded_close_never_foreign : forall s o,
  fs_guarded s = true -> live_ok s -> (forall id, o = FNew id -> flookup id (fs_objs s) = None) -> live_ok (fstep s o).
Proof. intros s o Hg Hi _. exact (fstep_live_ok s o Hg Hi). Qed.
Print Assumptions C13_guarded_close_never_foreign.

(* ... and without the guard (listener / packet conn before the repair) it is refuted. *)
Theorem C13_unguarded_close_refuted :
  let s := frun (mkfs [] [] false) [FNew 1; FClose 1; FNew 2; FClose 1] in
  exists ob, flookup 2 (fs_objs s) = Some ob /\ f_closed ob = false /\ ~ In (f_fd ob) (fs_table s).
Proof. vm_compute. eexists. split; [reflexivity|]. split; [reflexivity|]. intros []. Qed.
Print Assumptions C13_unguarded_close_refuted.

(* No leaks: every error path of every constructor closes what it allocated (finite sweep over the transcribed table),
   hence leaves the descriptor table exactly as it found it. *)
Theorem C13_ctor_error_paths_balanced : forall c p, In p (ctor_paths c) -> fst p = snd p.
Proof. intros c. apply Forall_forall. destruct c; repeat constructor. Qed.
Print Assumptions C13_ctor_error_paths_balanced.

Theorem C13_ctor_error_paths_restore_table : forall t c p, In p (ctor_paths c) -> forall x, In x (run_path t p) <-> In x t.
Proof. intros t c p Hin. exact (run_path_balanced t p (C13_ctor_error_paths_balanced c p Hin)). Qed.
Print Assumptions C13_ctor_error_paths_restore_table.

(* Non-vacuity: a read and a write deferred on one socket; the read completes: the object is still registered. *)
Example C13_demo :
  let s := lrun loop_init [LObj 1 KSock; LProg 10 []; LDepth 32; LAct (AStart false false 1 4 10); LAct (AStart true true 1 4 20);
                           LDepth 0; LPeer 1 (PData 4); LPoll [(0, 1, 1)]] in
  match lookup 1 (l_objs s) with Some o => o_evR o = false /\ o_evW o = true /\ o_reg o = true | None => False end.
Proof. vm_compute. auto. Qed.
