(* C19 -- codec connection framing is independent of transport segmentation.
   Model/LenCodec.v mirrors /repo/codec/frame/frame.go (Decode/resetDecode/Encode) and /repo/codec.go (CodecConn
   ReadNext/AsyncReadNext/WriteNext/AsyncWriteNext) over the three-FIFO view of ByteBuffer (C09) and a scripted transport
   (Model/Transport.v = harness/drv/memstream.go).  Spec/LenParser.v is the pure parser / encoder and, extracted, the
   oracle. *)
From Sonic Require Import Base.Prelude Base.ListLemmas Gen.Consts Spec.ThreeFifo Spec.LenParser Model.Transport Model.LenCodec
  Proofs.WsCodecProofs Proofs.LenCodecProofs.
Local Open Scope Z_scope.

(* For every unread byte string (hostile ones included) Decode returns exactly the pure parser's verdict: the next
   payload, need-more, or overflow - a declared length above the limit is rejected before anything is buffered for it;
   no panic; exactly the item is consumed. *)
Theorem C19_decode_is_lparse1 : forall c c' r,
  linv c -> bytes (l_unread c) -> ldecode c = (c', r) ->
  linv c' /\
  match lparse1 (l_unread c) with
  | LNeedMore => r = LDNeedMore /\ l_unread c' = l_unread c
  | LOverflow => r = LDOverflow /\ l_unread c' = l_unread c
  | LItem p rest => r = LDItem p /\ l_unread c' = rest
  end.
Proof. exact ldecode_spec. Qed.
Print Assumptions C19_decode_is_lparse1.

(* ReadNext / AsyncReadNext over a transport that delivers the bytes in ANY segmentation (chunks of any size, would-block
   in the middle of an item, EOF, errors): an item that is delivered is the next item of the byte stream (what the codec
   holds ++ what the transport has queued); when none is delivered not a byte of the stream is lost. *)
Theorem C19_read_next_segmentation_independent : forall fuel c t async c' t' r,
  linv c -> bytes (l_unread c) -> evs_ok (tr_in t) -> (length (tr_in t) < fuel)%nat ->
  read_loop fuel c t async = (c', t', r) ->
  linv c' /\ bytes (l_unread c') /\ evs_ok (tr_in t') /\
  match r with
  | CItem p => lparse1 (lstream c t) = LItem p (lstream c' t')
  | _ => lstream c' t' = lstream c t
  end.
Proof.
  intros fuel.
  induction fuel as [|f IH]; intros c t async c' t' r Hc Hb Ht Hf H; [lia|].
  cbn [read_loop] in H. destruct (ldecode c) as [c1 dr] eqn:Ed.
  destruct (ldecode_spec c c1 dr Hc Hb Ed) as (Hc1 & Hsp).
  destruct (lparse1 (l_unread c)) as [| |p rest] eqn:Ep; destruct Hsp as [-> Hu].
  - (* need more *)
    destruct (tr_read t) as [t1 rr] eqn:Er.
    destruct (tr_read_spec _ _ _ Ht Er) as (Hq & Hrr). rewrite <- Hu in Hb.
    assert (Hstop : flat (tr_in t1) = flat (tr_in t) ->
                    linv c1 /\ bytes (l_unread c1) /\ evs_ok (tr_in t1) /\ lstream c1 t1 = lstream c t).
    { intros Hfl. unfold lstream. rewrite <- Hu, Hfl. auto. }
    destruct rr as [w| | |].
    + (* bytes *)
      destruct Hrr as (Hfl & Hw & Hlen). destruct (l_feed_spec c1 w Hc1) as (Hc2 & Hu2).
      assert (Hs : lstream (l_feed c1 w) t1 = lstream c t).
      { unfold lstream. rewrite Hu2, <- Hu, Hfl, app_assoc. reflexivity. }
      assert (Hb2 : bytes (l_unread (l_feed c1 w))) by (rewrite Hu2; apply bytes_app; assumption).
      rewrite <- Hs. apply (IH _ _ async); [exact Hc2|exact Hb2|exact Hq|lia|exact H].
    + (* EOF *) inversion H; subst. apply Hstop, Hrr.
    + (* error *) inversion H; subst. apply Hstop, Hrr.
    + (* would block *) destruct async; inversion H; subst; apply Hstop, Hrr.
  - (* overflow *)
    inversion H; subst. unfold lstream. rewrite Hu. split; [exact Hc1|]. split; [exact Hb|]. split; [exact Ht|reflexivity].
  - (* an item *)
    inversion H; subst. split; [exact Hc1|]. split; [exact (lparse1_bytes _ _ _ Hb Ep)|]. split; [exact Ht|].
    apply lparse1_app, Ep.
Qed.
Print Assumptions C19_read_next_segmentation_independent.

(* What the encoder writes decodes to the same payload; a whole sequence of payloads (empty ones included) written
   back to back decodes to the same sequence. *)
Theorem C19_roundtrip : forall p rest,
  zlen p <= frame_MaxPayloadLength -> lparse1 (lencode p ++ rest) = LItem p rest.
Proof. exact lroundtrip. Qed.
Print Assumptions C19_roundtrip.

Theorem C19_roundtrip_sequence : forall ps,
  Forall (fun p => zlen p <= frame_MaxPayloadLength) ps ->
  lparse_all (S (length ps)) (concat (map lencode ps)) = ps.
Proof.
  intros ps.
  induction ps as [|p ps IH]; intros H.
  - cbn. unfold lparse1. reflexivity.
  - inversion H; subst. cbn [map concat lparse_all]. rewrite lroundtrip by assumption.
    f_equal. apply IH. assumption.
Qed.
Print Assumptions C19_roundtrip_sequence.

(* WriteNext on a healthy transport puts exactly (what an earlier failed write left) ++ encode(payload) on the wire and
   leaves nothing of the item behind. *)
Theorem C19_write_leaves_nothing_behind : forall s p s' r,
  tr_wfail (lc_tr s) < 0 -> zlen p <= frame_MaxPayloadLength -> write_sync s p = (s', r) ->
  let pending := t_read (lc_dst s) ++ t_pend (lc_dst s) in
  tr_wire (lc_tr s') = tr_wire (lc_tr s) ++ pending ++ lencode p /\
  t_read (lc_dst s') = [] /\ t_pend (lc_dst s') = [] /\ r = CWrote (zlen (pending ++ lencode p)) 0.
Proof.
  intros s p s' r Hw Hp H. unfold write_sync, lencode_into in H.
  replace (zlen p >? frame_MaxPayloadLength) with false in H by lia. cbn [negb] in H.
  unfold commit_all in H. rewrite tr_write_all_healthy in H by exact Hw. cbn [t_read t_pend t_saved t_room] in H.
  inversion H; subst; clear H. cbn [lc_tr lc_dst tr_wire].
  set (all := t_read (lc_dst s) ++ t_pend (lc_dst s) ++ lencode p).
  destruct (tconsume_spec (mktf (t_saved (lc_dst s)) all [] (t_room (lc_dst s))) (zlen all)) as [-> ->].
  { cbn [t_read]. pose proof (zlen_nonneg all). lia. }
  cbn [t_read t_pend]. rewrite zdrop_all by lia. rewrite <- app_assoc. repeat split; auto.
Qed.
Print Assumptions C19_write_leaves_nothing_behind.

(* Non-vacuity: three payloads written on one connection, the wire cut at awkward offsets, read on another. *)
Example C19_demo :
  let w := fold_left (fun s p => fst (lcstep s (LWriteNext p))) [[1;2;3]; []; [9]] lconn_init in
  let wire := tr_wire (lc_tr w) in
  wire = [0;0;0;3;1;2;3; 0;0;0;0; 0;0;0;1;9] /\
  let r := fold_left (fun '(s, out) o => let '(s', x) := lcstep s o in (s', out ++ [x]))
             [LIn (InData (ztake 2 wire)); LReadNext; LIn (InData (zsub 2 9 wire)); LReadNext; LReadNext;
              LIn (InData (zdrop 9 wire)); LReadNext; LReadNext; LReadNext]
             (lconn_init, []) in
  snd r = [CNone; CErr 4; CNone; CItem [1;2;3]; CErr 4; CNone; CItem []; CItem [9]; CErr 4].
Proof. vm_compute. split; reflexivity. Qed.
