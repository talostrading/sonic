(* C15 -- protocol violations are reported, never delivered as data. *)
From Sonic Require Import Base.Prelude Gen.Consts Gen.Preds Model.WsFrame Spec.FrameParser Model.Transport Model.WsStream Spec.WsSession
  Proofs.WsCodecProofs Proofs.WsStreamProofs.
Local Open Scope Z_scope.

(* A frame is reported as an error by handleFrame (used by every read API) iff it violates the framing rules; after a
   violation while Active the session is ClosedByUs with exactly one Close(1002) queued; in any other state nothing
   changes. *)
Theorem C15_framing_violation_reported : forall s f s' e,
  handle_frame s f = (s', e) ->
  (e <> eNone <-> mviolates f = true) /\
  (e <> eNone -> w_state s = ws_StateActive ->
     w_state s' = ws_StateClosedByUs /\
     exists key, w_log s' = w_log s ++ [(true, ws_OpcodeClose, close_payload ws_CloseProtocolError [], key)]) /\
  (e <> eNone -> w_state s <> ws_StateActive -> w_state s' = w_state s /\ w_log s' = w_log s).
Proof.
  intros s f s' e. rewrite handle_frame_eq. intros H. inversion H; subst s' e; clear H.
  split; [apply frame_err_violates|].
  split; intros Hne Ha; replace (frame_err f =? eNone) with false by lia; unfold on_violation.
  - replace (w_state s =? ws_StateActive) with true by lia. apply prepare_close_log.
  - replace (w_state s =? ws_StateActive) with false by lia. split; reflexivity.
Qed.
Print Assumptions C15_framing_violation_reported.

(* The model's bit tests are exactly the RFC 6455 rules stated arithmetically (reserved bits, masked frame from a server,
   reserved opcode, fragmented control frame, control frame above 125 bytes), for every byte string. *)
Theorem C15_violation_is_rfc_rule : forall f,
  bytes f -> 2 + sp_ext f <= zlen f -> sp_plen f < WsFrame.two63 -> mviolates f = violates f.
Proof.
  intros f Hb Hlen Hpl. destruct (frame_fields f Hb) as (Hr & Hm & Hop & Hfin).
  unfold mviolates, violates.
  rewrite Hr, Hm, Hop, Hfin, (payload_length_whole f Hb Hlen Hpl), opcode_control, opcode_reserved.
  change ws_MaxControlFramePayloadLength with 125. rewrite <- !orb_assoc. f_equal. f_equal.
  destruct (is_control_op (r_op f)) eqn:Ec.
  - rewrite (control_not_reserved _ Ec). reflexivity.
  - rewrite andb_false_l, orb_false_r. reflexivity.
Qed.
Print Assumptions C15_violation_is_rfc_rule.

(* After the violation application writes are refused. *)
Theorem C15_writes_refused_after_violation : forall s async mt payload,
  w_state s <> ws_StateActive -> zlen payload <= w_max s ->
  wsstep s (WWrite async mt payload) = (s, [EWrite eCancelled]).
Proof. exact write_refused_when_not_active. Qed.
Print Assumptions C15_writes_refused_after_violation.

(* The message-level API delivers nothing of a frame reported as an error. *)
Theorem C15_message_api_reports : forall async s buflen acc cont mtype f err,
  err <> eNone -> msg_frame async s buflen acc cont mtype f err = (s, MDone [EMsg mtype (zlen acc) acc err]).
Proof.
  intros async s buflen acc cont mtype f err H. unfold msg_frame. replace (negb (err =? eNone)) with true by lia. reflexivity.
Qed.
Print Assumptions C15_message_api_reports.

(* Fragmentation rules at the message level. *)
Theorem C15_fragmentation_rules : forall async s buflen acc cont mtype f,
  Opcode_IsControl (opcode_of f) = false ->
  zlen (copy_into buflen acc (payload_of f)) <= w_max s ->
  zlen (copy_into buflen acc (payload_of f)) - zlen acc = payload_length f ->
  let mt := if mtype =? ws_TypeNone then opcode_of f else mtype in
  let acc' := copy_into buflen acc (payload_of f) in
  (cont = false -> Opcode_IsContinuation (opcode_of f) = true ->
     msg_frame async s buflen acc cont mtype f eNone = (s, MDone [EMsg mt (zlen acc') acc' eUnexpectedContinuation])) /\
  (cont = true -> Opcode_IsContinuation (opcode_of f) = false ->
     msg_frame async s buflen acc cont mtype f eNone = (s, MDone [EMsg mt (zlen acc') acc' eExpectedContinuation])).
Proof.
  intros async s buflen acc cont mtype f Hc Hfit Hn mt acc'. unfold msg_frame. change (negb (eNone =? eNone)) with false. cbv iota. rewrite Hc.
  fold mt. fold acc'.
  replace ((zlen acc' >? w_max s) || negb (zlen acc' - zlen acc =? payload_length f)) with false by (unfold acc'; lia).
  split; intros -> ->; cbn [negb]; reflexivity.
Qed.
Print Assumptions C15_fragmentation_rules.

(* Frames above the configured maximum never reach handleFrame: the decoder rejects them (C07). *)
Theorem C15_oversized_rejected_by_decoder : forall max V raw rest,
  bytes V -> 0 <= max -> parse1 max V = PFrame raw rest -> sp_plen V <= max.
Proof. intros max V raw rest Hb _ H. exact (proj1 (parse1_bounded max V raw rest Hb H)). Qed.
Print Assumptions C15_oversized_rejected_by_decoder.

Example C15_demo :
  let s0 := ws_init 1024 [[1;2;3;4]] in
  let '(s1, evs) := wsstep s0 (WIn (InData [193; 1; 65])) in      (* RSV1 set *)
  let '(s2, evs2) := wsstep s1 WNextFrame in
  evs2 = [EFrame [193; 1; 65] eReservedBits] /\ w_state s2 = ws_StateClosedByUs /\
  snd (wsstep s2 (WWrite false 1 [66])) = [EWrite eCancelled].
Proof. vm_compute. repeat split. Qed.
