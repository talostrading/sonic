(* C07 -- the WebSocket frame decoder is total, bounded and stays in sync.
   Model/WsCodec.v mirrors FrameCodec.Decode/resetDecode of /repo/codec/websocket/frame_codec.go over the three-FIFO view
   of the ByteBuffer (which the ByteBuffer model provably refines, C09); frame accessors (Model/WsFrame.v) mirror frame.go
   with the masks of the regenerated Gen/Consts.v.  Spec/FrameParser.v is the pure arithmetic RFC 6455 parser and,
   extracted, the oracle that judges the implementation. *)
From Sonic Require Import Base.Prelude Model.WsFrame Spec.FrameParser Model.WsCodec Proofs.WsCodecProofs.
Local Open Scope Z_scope.

(* For EVERY byte string held unread by the decoder (adversarial ones included): Decode returns exactly what the pure
   parser says - the next frame's exact bytes, "need more", or "too big" - never panics, consumes exactly the frame. *)
Theorem C07_decode_is_parse1 : forall c c' r,
  cinv c -> bytes (unread c) -> decode c = (c', r) ->
  cinv c' /\ c_max c' = c_max c /\
  match parse1 (c_max c) (unread c) with
  | PNeedMore => r = DNeedMore /\ unread c' = unread c
  | PTooBig => r = DTooBig /\ unread c' = unread c
  | PFrame raw rest => r = DFrame raw /\ unread c' = rest
  end.
Proof. exact decode_spec. Qed.
Print Assumptions C07_decode_is_parse1.

Theorem C07_total_never_panics : forall c c' r,
  cinv c -> bytes (unread c) -> decode c = (c', r) -> r <> DPanic.
Proof.
  intros c c' r Hc Hb Hd. destruct (decode_spec c c' r Hc Hb Hd) as (_ & _ & H).
  destruct (parse1 (c_max c) (unread c)); destruct H as [-> _]; discriminate.
Qed.
Print Assumptions C07_total_never_panics.

(* A yielded frame never exceeds the configured maximum (64-bit lengths with the top bit set included: sp_plen is the
   unsigned value), and is exactly the prefix of the stream. *)
Theorem C07_bounded : forall max V raw rest,
  bytes V -> 0 <= max -> parse1 max V = PFrame raw rest ->
  sp_plen V <= max /\ zlen raw = sp_total V /\ zlen raw <= max + 14 /\ raw ++ rest = V.
Proof. intros max V raw rest Hb _. apply parse1_bounded, Hb. Qed.
Print Assumptions C07_bounded.

(* Any interleaving of feeds (with arbitrary split points) and decodes delivers exactly the frames the pure parser finds
   one after the other in the concatenation of all fed bytes: independent of the splitting, never out of sync. *)
Theorem C07_split_independent_in_sync : forall ops c,
  cinv c -> bytes (unread c) -> feeds_ok ops ->
  let '(c', fs) := crun c ops in
  cinv c' /\ bytes (unread c') /\ c_max c' = c_max c /\ pseq (c_max c) fs (unread c ++ fed ops) (unread c').
Proof.
  intros ops.
  induction ops as [|o ops IH]; intros c Hc Hb Hf; cbn [crun].
  - change (fed []) with (@nil Z). rewrite app_nil_r. split; [exact Hc|]. split; [exact Hb|]. split; [reflexivity|].
    constructor.
  - inversion Hf as [|? ? Ho Hrest]; subst. destruct o as [w|].
    + rewrite fed_feed. destruct (feed_spec c w Hc) as (Hc1 & Hu1 & Hm1).
      assert (Hb1 : bytes (unread (feed c w))) by (rewrite Hu1; apply bytes_app; assumption).
      specialize (IH (feed c w) Hc1 Hb1 Hrest). rewrite Hm1, Hu1, <- app_assoc in IH.
      destruct (crun (feed c w) ops) as [c' fs]. exact IH.
    + rewrite fed_decode. destruct (decode c) as [c1 r] eqn:Ed.
      destruct (decode_spec c c1 r Hc Hb Ed) as (Hc1 & Hm1 & Hsp).
      destruct (parse1 (c_max c) (unread c)) as [| |raw rest] eqn:Ep; destruct Hsp as [-> Hu].
      * (* need more *)
        rewrite <- Hu in Hb. specialize (IH c1 Hc1 Hb Hrest). rewrite Hm1, Hu in IH.
        destruct (crun c1 ops) as [c' fs]. exact IH.
      * (* too big *)
        rewrite <- Hu in Hb. specialize (IH c1 Hc1 Hb Hrest). rewrite Hm1, Hu in IH.
        destruct (crun c1 ops) as [c' fs]. exact IH.
      * (* a frame *)
        pose proof (parse1_bytes _ _ _ _ Hb Ep) as Hb1. rewrite <- Hu in Hb1.
        specialize (IH c1 Hc1 Hb1 Hrest). rewrite Hm1, Hu in IH.
        destruct (crun c1 ops) as [c' fs]. destruct IH as (Hc' & Hb' & Hm' & Hps).
        split; [exact Hc'|]. split; [exact Hb'|]. split; [exact Hm'|].
        econstructor; [apply parse1_app; exact Ep|exact Hps].
Qed.
Print Assumptions C07_split_independent_in_sync.

(* Decoding what the encoder writes (header + shortest length form + key + masked payload) returns the identical
   frame, for every FIN/RSV/opcode/mask combination and every payload length up to the maximum. *)
Theorem C07_roundtrip : forall max fin rsv op masked key payload rest,
  0 <= rsv < 8 -> zlen payload <= max -> max < WsFrame.two63 -> (masked = true -> zlen key = 4) ->
  let F := build_frame fin rsv op masked key payload in
  parse1 max (F ++ rest) = PFrame F rest.
Proof. intros max fin rsv op masked key payload rest _. apply roundtrip. Qed.
Print Assumptions C07_roundtrip.

(* Non-vacuity: a two-frame stream fed in three pieces with decodes in between; and the former defect witness. *)
Example C07_demo :
  let ops := [CFeed [130; 126; 0]; CDecode; CFeed [126]; CDecode; CFeed (repeat 7 126 ++ [129; 1]); CDecode; CDecode; CFeed [65]; CDecode] in
  feeds_ok ops /\ cinv (codec_init 1024) /\
  snd (crun (codec_init 1024) ops) = [[130; 126; 0; 126] ++ repeat 7 126; [129; 1; 65]].
Proof.
  split; [|split].
  - (* what remains is about repeat 7 126 *)
    repeat constructor; unfold is_byte; try lia.
    all: apply Forall_forall; intros x Hx; apply repeat_spec in Hx; subst; unfold is_byte; lia.
  - unfold cinv; cbn. split; [discriminate|unfold WsFrame.two63; lia].
  - vm_compute. reflexivity.
Qed.

Example C07_top_bit_rejected :
  snd (decode (feed (codec_init 1024) [130; 127; 255; 255; 255; 255; 255; 255; 255; 255; 1; 2])) = DTooBig.
Proof. vm_compute. reflexivity. Qed.
