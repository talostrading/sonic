(* C18 -- the opening handshake (client).
   Model/Handshake.v mirrors /repo/codec/websocket/stream.go upgrade() after the request was written: the read loop that
   collects the response head over any segmentation of the byte stream (buffer growth, size limit, end of stream or
   error at any point), the part of net/http's response parser the hs_verdict depends on, the acceptance test
   (/repo/codec/websocket/rfc6455.go IsUpgradeRes + accept key comparison), the hand-over of the bytes after the head to
   the frame decoder and the resulting stream state.  The expected accept value is an input (crypto is not modelled);
   the request the client sends is checked by the harness with an independent parser.
   PARTIAL: net/http itself is trusted - the model of its parser is validated by the correspondence run on generated
   responses only; completeness of the read loop (a head that is present is always found) is proved for transports that
   deliver data only, and for the handshake as a whole up to 90 data segments (the bound comes from the model's loop
   fuel). *)
From Coq Require Import Permutation.
From Sonic Require Import Base.Prelude Model.Handshake Proofs.HandshakeProofs.
Local Open Scope Z_scope.

(* The read loop conserves the byte stream and reports the head that ends at the FIRST blank line - for every
   segmentation, buffer size and fuel. *)
Theorem C18_read_loop_conserves_stream : forall fuel buf cap tr buf1 e tr1,
  read_head fuel buf cap tr = HDone buf1 e tr1 -> zlen buf <= cap ->
  buf1 ++ flat tr1 = buf ++ flat tr /\ find_end buf1 0 = Some e /\ find_end (buf ++ flat tr) 0 = Some e.
Proof.
  intros fuel buf cap tr buf1 e tr1 H _. destruct (read_head_done H) as [A B].
  rewrite <- A. auto using find_end_prefix.
Qed.
Print Assumptions C18_read_loop_conserves_stream.

(* The outcome does not depend on how the response bytes are segmented. *)
Theorem C18_segmentation_independent : forall f1 f2 cap1 cap2 tr1 tr2 b1 e1 r1 b2 e2 r2,
  read_head f1 [] cap1 tr1 = HDone b1 e1 r1 -> read_head f2 [] cap2 tr2 = HDone b2 e2 r2 ->
  0 <= cap1 -> 0 <= cap2 -> flat tr1 = flat tr2 ->
  e1 = e2 /\ ztake e1 b1 = ztake e2 b2 /\ zdrop e1 b1 ++ flat r1 = zdrop e2 b2 ++ flat r2.
Proof.
  intros f1 f2 cap1 cap2 tr1 tr2 b1 e1 r1 b2 e2 r2 H1 H2 _ _ Hs.
  destruct (read_head_split H1) as (E1 & T1 & D1), (read_head_split H2) as (E2 & T2 & D2).
  cbn [app] in *. rewrite Hs in *. assert (e1 = e2) by congruence. subst e2.
  rewrite T1, T2, D1, D2. auto.
Qed.
Print Assumptions C18_segmentation_independent.

(* Active if and only if the result is nil; otherwise terminated, never half-open; active only if the head up to the
   first blank line is accepted, and then every byte after that blank line is frame data - none lost, none duplicated. *)
Theorem C18_handshake_outcome : forall s tr expected s1 cls tr1,
  handshake s tr expected = (s1, cls, tr1) ->
  (h_state s1 = 1 <-> cls = 0) /\ (h_state s1 = 1 \/ h_state s1 = 5) /\
  (cls = 0 ->
     exists e, find_end (flat tr) 0 = Some e /\ hs_verdict (ztake e (flat tr)) expected = 0 /\
               h_src s1 ++ flat tr1 = zdrop e (flat tr)).
Proof.
  intros s tr expected s1 cls tr1. unfold handshake. cbv zeta.
  (* the capacity the buffer ends up with is stored and plays no part in the outcome: any cap1 will do *)
  generalize (read_cap hs_fuel [] (Z.max hs_buffer_size (h_cap s)) tr). intros cap1.
  (* every way out but one: terminated, with a result that is not nil *)
  assert (Hterm : forall src c (P : Prop), c <> 0 ->
            (h_state (mkhs 5 src cap1) = 1 <-> c = 0) /\ (h_state (mkhs 5 src cap1) = 1 \/ h_state (mkhs 5 src cap1) = 5) /\
            (c = 0 -> P)) by (cbn [h_state]; intros; lia).
  pose proof (read_head_post hs_fuel [] (Z.max hs_buffer_size (h_cap s)) tr) as Hpost.
  destruct (read_head hs_fuel [] _ tr) as [buf e tr2|c tr2|] eqn:Er.
  - destruct (read_head_split Er) as (E & T & D). cbn [app] in *.
    destruct (hs_verdict (ztake e buf) expected =? 0) eqn:Ev.
    + intros H; inversion H; subst; cbn [h_state h_src]. split; [tauto|]. split; [auto|]. intros _.
      exists e. rewrite <- T. repeat split; auto. lia.
    + destruct (hs_verdict (ztake e buf) expected =? 3); intros H; inversion H; subst; apply Hterm; lia.
  - intros H; inversion H; subst. apply Hterm. exact Hpost.
  - intros H; inversion H; subst. apply Hterm. lia.
Qed.
Print Assumptions C18_handshake_outcome.

(* Letter case of the name and optional whitespace around the value do not matter ... *)
Theorem C18_header_line_case_and_whitespace : forall name ws1 v ws2,
  name <> [] -> forallb is_tchar name = true ->
  forallb is_ows ws1 = true -> forallb is_ows ws2 = true ->
  match v with a :: _ => is_ows a = false | [] => True end ->
  match rev v with a :: _ => is_ows a = false | [] => True end ->
  parse_header (name ++ cCOLON :: ws1 ++ v ++ ws2) = Some (map lower name, v).
Proof.
  intros name ws1 v ws2 Hn Ht H1 H2 Hv Hr. unfold parse_header.
  rewrite (split_at_app cCOLON name).
  - cbn [app]. destruct name; [contradiction|]. rewrite Ht. rewrite trim_ows by assumption. reflexivity.
  - (* the colon is not a token character *)
    apply forallb_forall. intros b Hb. apply (proj1 (forallb_forall _ _) Ht) in Hb.
    unfold is_tchar, is_digit, cCOLON in *. cbn in Hb. lia.
Qed.
Print Assumptions C18_header_line_case_and_whitespace.

(* ... nor does header order. *)
Theorem C18_header_order : forall hs hs' n,
  Permutation hs hs' -> NoDup (map fst hs) -> hget n hs = hget n hs'.
Proof.
  intros hs hs' n. induction 1 as [|[k v] l l' HP IH|[k1 v1] [k2 v2] l|l1 l2 l3 HP1 IH1 HP2 IH2]; intros Hnd.
  - (* perm_nil *) reflexivity.
  - (* perm_skip *) cbn. inversion Hnd; subst. rewrite IH by assumption. reflexivity.
  - (* perm_swap: the two names differ, so at most one of them is n *)
    cbn. inversion Hnd as [|? ? Hin Hnd']; subst. cbn in Hin.
    destruct (list_eqb k2 n) eqn:E2; destruct (list_eqb k1 n) eqn:E1; try reflexivity.
    apply list_eqb_eq in E1, E2. subst. exfalso. apply Hin. left. reflexivity.
  - (* perm_trans *) rewrite IH1 by assumption. apply IH2. eapply Permutation_NoDup; [apply Permutation_map; exact HP1|exact Hnd].
Qed.
Print Assumptions C18_header_order.

(* Non-vacuity: "HTTP/1.1 101 X / upgrade:   WebSocket / SEC-WEBSOCKET-ACCEPT:abc" + a piggy-backed frame, delivered
   in three segments cut inside the blank line; and the same response with a wrong accept value. *)
Example C18_demo :
  let resp := [72;84;84;80;47;49;46;49;32;49;48;49;32;88;13;10] ++
              [117;112;103;114;97;100;101;58;32;32;32;87;101;98;83;111;99;107;101;116;13;10] ++
              [83;69;67;45;87;69;66;83;79;67;75;69;84;45;65;67;67;69;80;84;58;97;98;99;13;10;13;10] in
  let frame := [129; 2; 104; 105] in
  let all := resp ++ frame in
  let tr := [TChunk (ztake 10 all); TChunk (zsub 10 (zlen resp - 2) all); TChunk (zdrop (zlen resp - 2) all)] in
  handshake hs_init tr [97;98;99] = (mkhs 1 frame 1024, 0, []) /\
  handshake hs_init tr [97;98;100] = (mkhs 5 frame 1024, 1, []) /\
  handshake hs_init [TChunk (ztake 30 all)] [97;98;99] = (mkhs 5 [] 1024, 2, []).
Proof. vm_compute. auto. Qed.

(* Completeness of the read loop: a head that ends within the size limit is found, whatever the segmentation of the data the
   transport delivers, the buffer it starts with and its growth (n doublings reach the limit). *)
Theorem C18_read_loop_finds_the_head : forall fuel n buf cap tr e,
  zlen buf <= cap -> 0 < cap -> forallb is_chunk tr = true ->
  find_end buf 0 = None -> find_end (buf ++ flat tr) 0 = Some e -> e <= hs_limit -> hs_limit <= cap * 2 ^ Z.of_nat n ->
  2 * zlen tr + 2 * Z.of_nat n + (if zlen buf =? cap then 0 else 1) < Z.of_nat fuel ->
  exists buf1 tr1, read_head fuel buf cap tr = HDone buf1 e tr1.
Proof.
  induction fuel as [|f IH]; intros n buf cap tr e Hc Hpos Hch Hnone Hend He Hn Hfuel.
  { pose proof (zlen_nonneg tr). destruct (zlen buf =? cap); lia. }
  cbn [read_head].
  destruct ((zlen buf =? cap) && (hs_limit <=? cap)) eqn:Efull.
  { (* full at the limit: the end lies within the buffer, it would have been found *)
    apply find_end_app in Hend; [congruence|lia]. }
  (* fuel: every iteration uses up a segment or leaves the buffer full (tread_chunks), and one that starts with a full
     buffer uses up one of the n doublings *)
  set (cap1 := if zlen buf =? cap then 2 * cap else cap).
  assert (Hgrow : exists n1 : nat, hs_limit <= cap1 * 2 ^ Z.of_nat n1 /\
                                   Z.of_nat n = Z.of_nat n1 + (if zlen buf =? cap then 1 else 0)).
  { unfold cap1. destruct (zlen buf =? cap); [|exists n; lia].
    destruct n as [|n1]; [cbn in Hn; lia|]. exists n1. rewrite Nat2Z.inj_succ, Z.pow_succ_r in Hn by lia. lia. }
  destruct Hgrow as (n1 & Hn1 & Hnn1).
  assert (Hc1 : zlen buf <= cap1 /\ 0 < cap1) by (unfold cap1; destruct (zlen buf =? cap); lia).
  assert (Hne : tr <> []) by (intros ->; cbn [flat] in Hend; rewrite app_nil_r in Hend; congruence).
  destruct (tread_chunks (cap1 - zlen buf) tr Hch Hne ltac:(lia)) as (d & tr1 & Et & Hch1 & Hprog).
  rewrite Et. rewrite (tread_flat Et), app_assoc in Hend.
  destruct (find_end (buf ++ d) 0) as [e0|] eqn:Ef.
  - rewrite (find_end_prefix (flat tr1) Ef) in Hend. inversion Hend; subst. eauto.
  - cbn [Z.eqb].
    assert (Hfit : zlen (buf ++ d) <= cap1) by (rewrite zlen_app; lia).
    apply (IH n1 (buf ++ d) cap1 tr1 e Hfit (proj2 Hc1) Hch1 Ef Hend He Hn1).
    rewrite zlen_app. destruct (zlen buf =? cap), (zlen buf + zlen d =? cap1) eqn:E; lia.
Qed.
Print Assumptions C18_read_loop_finds_the_head.

(* A conforming response is never refused: every segmentation (up to 90 data segments - the bound comes from the model's
   loop fuel) of a response whose head ends within 64 KiB and is acceptable ends with the stream active and exactly the
   bytes behind the blank line in the decoder's buffer or still in the transport - on a fresh stream and on one that was
   handshaken before (whatever capacity its handshake buffer has grown to). *)
Theorem C18_conforming_response_is_accepted : forall s tr expected e,
  forallb is_chunk tr = true -> (length tr <= 90)%nat ->
  find_end (flat tr) 0 = Some e -> e <= hs_limit -> hs_verdict (ztake e (flat tr)) expected = 0 ->
  exists s1 tr1, handshake s tr expected = (s1, 0, tr1) /\ h_state s1 = 1 /\ h_src s1 ++ flat tr1 = zdrop e (flat tr).
Proof.
  intros s tr expected e Hch Hlen Hend He Hv.
  set (cap0 := Z.max hs_buffer_size (h_cap s)).
  assert (Hcap : 1024 <= cap0) by (unfold cap0, hs_buffer_size; lia).
  (* six doublings take the smallest buffer, 1 KiB, to the limit; 2 * 90 + 2 * 6 + 1 < 200 *)
  assert (Hfit : zlen (@nil Z) <= cap0) by (change (zlen (@nil Z)) with 0; lia).
  assert (Hpos : 0 < cap0) by lia.
  assert (Hgrow : hs_limit <= cap0 * 2 ^ Z.of_nat 6) by (change (2 ^ Z.of_nat 6) with 64; unfold hs_limit; lia).
  assert (Hfuel : 2 * zlen tr + 2 * Z.of_nat 6 + (if zlen (@nil Z) =? cap0 then 0 else 1) < Z.of_nat hs_fuel)
    by (change (Z.of_nat hs_fuel) with 200; unfold zlen; destruct (_ =? _); lia).
  destruct (C18_read_loop_finds_the_head hs_fuel 6 [] cap0 tr e Hfit Hpos Hch eq_refl Hend He Hgrow Hfuel)
    as (buf1 & tr2 & Hrh).
  destruct (read_head_split Hrh) as (_ & T & D). cbn [app] in *.
  rewrite <- T in Hv. destruct (handshake_done s tr expected Hrh Hv) as [cap Hh].
  exists (mkhs 1 (zdrop e buf1) cap), tr2. rewrite Hh. cbn [h_state h_src]. auto.
Qed.
Print Assumptions C18_conforming_response_is_accepted.

(* Non-vacuity: the demo response in three segments meets the premises. *)
Example C18_accept_premises :
  let resp := [72;84;84;80;47;49;46;49;32;49;48;49;32;88;13;10] ++
              [117;112;103;114;97;100;101;58;32;32;32;87;101;98;83;111;99;107;101;116;13;10] ++
              [83;69;67;45;87;69;66;83;79;67;75;69;84;45;65;67;67;69;80;84;58;97;98;99;13;10;13;10] in
  let all := resp ++ [129; 2; 104; 105] in
  let tr := [TChunk (ztake 10 all); TChunk (zsub 10 (zlen resp - 2) all); TChunk (zdrop (zlen resp - 2) all)] in
  forallb is_chunk tr = true /\ (length tr <= 90)%nat /\ find_end (flat tr) 0 = Some (zlen resp) /\ zlen resp <= hs_limit /\
  hs_verdict (ztake (zlen resp) (flat tr)) [97;98;99] = 0.
Proof. cbv zeta. split; [reflexivity|]. split; [cbn; lia|]. vm_compute. repeat split; try reflexivity. discriminate. Qed.
