(* Shared definitions used by the generated and hand-written models. *)
From Coq Require Export ZArith List Bool Lia.
Export ListNotations.
Open Scope Z_scope.

(* Result of a Go computation that may panic (slice bounds, index out of range). *)
Inductive outcome (A : Type) : Type :=
| Ok (a : A)
| Panic.
Arguments Ok {A} a.
Arguments Panic {A}.

Definition obind {A B : Type} (o : outcome A) (f : A -> outcome B) : outcome B :=
  match o with Ok a => f a | Panic => Panic end.

Definition omap {A B : Type} (f : A -> B) (o : outcome A) : outcome B :=
  match o with Ok a => Ok (f a) | Panic => Panic end.

(* A Go slice value relative to its backing array: offset of element 0 and length.  Only slices whose capacity
   equals their length are modelled (every slice expression in the translated subset has that form or is
   re-sliced below its length). *)
Record slice : Type := mkslice { soff : Z; slen : Z }.

(* arr[a:b] on a backing array of length cap *)
Definition slice_of (cap a b : Z) : outcome slice :=
  if (0 <=? a) && (a <=? b) && (b <=? cap) then Ok (mkslice a (b - a)) else Panic.

(* s[a:b] on a slice value *)
Definition reslice (s : slice) (a b : Z) : outcome slice :=
  if (0 <=? a) && (a <=? b) && (b <=? slen s) then Ok (mkslice (soff s + a) (b - a)) else Panic.

Definition zlen {A} (l : list A) : Z := Z.of_nat (length l).
Definition ztake {A} (n : Z) (l : list A) : list A := firstn (Z.to_nat n) l.
Definition zdrop {A} (n : Z) (l : list A) : list A := skipn (Z.to_nat n) l.
Definition zsub {A} (a b : Z) (l : list A) : list A := ztake (b - a) (zdrop a l).
Definition zwrite {A} (a : Z) (w : list A) (l : list A) : list A :=
  ztake a l ++ w ++ zdrop (a + zlen w) l.

Lemma zlen_nonneg {A} (l : list A) : 0 <= zlen l.
Proof. unfold zlen; lia. Qed.

Lemma zlen_cons {A} (x : A) l : zlen (x :: l) = zlen l + 1.
Proof. unfold zlen; cbn [length]; lia. Qed.

Lemma zlen_app {A} (l1 l2 : list A) : zlen (l1 ++ l2) = zlen l1 + zlen l2.
Proof. unfold zlen; rewrite app_length; lia. Qed.

Lemma zlen_ztake {A} n (l : list A) : 0 <= n <= zlen l -> zlen (ztake n l) = n.
Proof. unfold zlen, ztake; intros H; rewrite firstn_length; lia. Qed.

Lemma zlen_zdrop {A} n (l : list A) : 0 <= n <= zlen l -> zlen (zdrop n l) = zlen l - n.
Proof. unfold zlen, zdrop; intros H; rewrite skipn_length; lia. Qed.

Lemma zlen_zsub {A} a b (l : list A) : 0 <= a <= b -> b <= zlen l -> zlen (zsub a b l) = b - a.
Proof.
  intros H1 H2; unfold zsub. rewrite zlen_ztake; [lia|]. rewrite zlen_zdrop; lia.
Qed.

Lemma zlen_zwrite {A} a (w l : list A) : 0 <= a -> a + zlen w <= zlen l -> zlen (zwrite a w l) = zlen l.
Proof.
  intros H1 H2; unfold zwrite. pose proof (zlen_nonneg w).
  rewrite !zlen_app, zlen_ztake, zlen_zdrop; lia.
Qed.
