(* The Z-indexed sublists of Prelude (ztake, zdrop, zsub, zwrite and their lengths), slices, and the few facts about
   Forall, forallb, nth, fold_left, filter and concat that the standard library lacks. *)
From Sonic Require Import Base.Prelude.
Local Open Scope Z_scope.

(* Go's `if a > n { a = n }` followed by a use of a: the translator copies the continuation into both branches *)
Lemma clamp_if {A} (a n : Z) (f : Z -> A) : (if a >? n then f n else f a) = f (Z.min n a).
Proof. destruct (a >? n) eqn:E; [rewrite Z.min_l by lia|rewrite Z.min_r by lia]; reflexivity. Qed.

Lemma Forall_firstn {A} (P : A -> Prop) n l : Forall P l -> Forall P (firstn n l).
Proof.
  revert l. induction n as [|n IH]; intros l H; [constructor|].
  destruct l as [|x l]; [constructor|]. inversion H; subst. cbn. constructor; auto.
Qed.

Lemma Forall_skipn {A} (P : A -> Prop) n l : Forall P l -> Forall P (skipn n l).
Proof.
  revert l. induction n as [|n IH]; intros l H; [exact H|].
  destruct l as [|x l]; [constructor|]. inversion H; subst. cbn. auto.
Qed.

Lemma nth_firstn_lt {A} i m (l : list A) d : (i < m)%nat -> nth i (firstn m l) d = nth i l d.
Proof.
  revert i l. induction m as [|k IH]; intros i l Hm; [lia|].
  destruct l as [|x l]; [destruct i; reflexivity|]. destruct i; [reflexivity|]. cbn. apply IH. lia.
Qed.

Lemma forallb_rev {A} (f : A -> bool) l : forallb f (rev l) = forallb f l.
Proof.
  induction l as [|a l IH]; cbn; [reflexivity|]. rewrite forallb_app, IH. cbn. rewrite andb_true_r. apply andb_comm.
Qed.

Lemma forallb_false {A} (f : A -> bool) : forall l, forallb f l = false -> exists i x, nth_error l i = Some x /\ f x = false.
Proof.
  induction l as [|y l IH]; cbn; intros H; [discriminate|].
  destruct (f y) eqn:E.
  - destruct (IH H) as (i & x & A1 & A2). exists (S i), x. auto.
  - exists O, y. auto.
Qed.

Lemma filter_len_le {A} (f : A -> bool) l : (length (filter f l) <= length l)%nat.
Proof. induction l as [|a l IH]; cbn; [lia|]. destruct (f a); cbn; lia. Qed.

Lemma concat_snoc {A} (l : list (list A)) x : concat (l ++ [x]) = concat l ++ x.
Proof. rewrite concat_app. cbn. rewrite app_nil_r. reflexivity. Qed.

Lemma cons_neq {A} (x : A) l : l <> x :: l.
Proof. intros H. apply (f_equal (@length A)) in H. cbn in H. lia. Qed.

Lemma fold_left_inv {S O} (step : S -> O -> S) (P : S -> Prop) :
  (forall s o, P s -> P (step s o)) -> forall ops s, P s -> P (fold_left step ops s).
Proof. intros Hstep. induction ops as [|o r IH]; intros s H; [exact H|]. cbn. apply IH, Hstep, H. Qed.

Lemma zlen_nil {A} : zlen (@nil A) = 0.
Proof. reflexivity. Qed.

Lemma zlen_zero_nil {A} (l : list A) : zlen l = 0 -> l = [].
Proof. destruct l; [reflexivity|]. rewrite zlen_cons. pose proof (zlen_nonneg l). lia. Qed.

Lemma zlen_repeat {A} (x : A) n : 0 <= n -> zlen (repeat x (Z.to_nat n)) = n.
Proof. intros H. unfold zlen. rewrite repeat_length. lia. Qed.

Lemma zlen_ztake_le {A} n (l : list A) : 0 <= n -> zlen (ztake n l) <= n.
Proof. intros H. unfold zlen, ztake. rewrite firstn_length. lia. Qed.

Lemma zlen_zdrop_le {A} k (l : list A) : zlen (zdrop k l) <= zlen l.
Proof. unfold zlen, zdrop. rewrite skipn_length. lia. Qed.

Lemma ztake_nonpos {A} n (l : list A) : n <= 0 -> ztake n l = [].
Proof. intros H; unfold ztake. replace (Z.to_nat n) with O by lia. reflexivity. Qed.

Lemma zdrop_nonpos {A} n (l : list A) : n <= 0 -> zdrop n l = l.
Proof. intros H; unfold zdrop. replace (Z.to_nat n) with O by lia. reflexivity. Qed.

Lemma ztake_all {A} n (l : list A) : zlen l <= n -> ztake n l = l.
Proof. unfold zlen, ztake; intros H. apply firstn_all2; lia. Qed.

Lemma zdrop_all {A} n (l : list A) : zlen l <= n -> zdrop n l = [].
Proof. unfold zlen, zdrop; intros H. apply skipn_all2; lia. Qed.

Lemma ztake_zdrop_split {A} n (l : list A) : ztake n l ++ zdrop n l = l.
Proof. unfold ztake, zdrop. apply firstn_skipn. Qed.

Lemma ztake_ztake {A} a b (l : list A) : a <= b -> ztake a (ztake b l) = ztake a l.
Proof.
  intros H. unfold ztake. rewrite firstn_firstn. f_equal. lia.
Qed.

Lemma zdrop_zdrop {A} a b (l : list A) : 0 <= a -> 0 <= b -> zdrop a (zdrop b l) = zdrop (b + a) l.
Proof.
  intros Ha Hb; unfold zdrop. replace (Z.to_nat (b + a)) with (Z.to_nat a + Z.to_nat b)%nat by lia.
  revert l. induction (Z.to_nat b) as [|k IH]; intros l.
  - rewrite Nat.add_0_r. reflexivity.
  - destruct l as [|x l].
    + rewrite !skipn_nil. reflexivity.
    + replace (Z.to_nat a + S k)%nat with (S (Z.to_nat a + k)) by lia. cbn [skipn]. apply IH.
Qed.

Lemma zdrop_ztake {A} a b (l : list A) : 0 <= a -> zdrop a (ztake b l) = ztake (b - a) (zdrop a l).
Proof.
  intros Ha. unfold zdrop, ztake.
  destruct (Z_le_gt_dec a b) as [Hab|Hab].
  - replace (Z.to_nat (b - a)) with (Z.to_nat b - Z.to_nat a)%nat by lia.
    rewrite skipn_firstn_comm. reflexivity.
  - replace (Z.to_nat (b - a)) with O by lia. cbn [firstn].
    apply skipn_all2. rewrite firstn_length. lia.
Qed.

Lemma ztake_app_r {A} n (l1 l2 : list A) : zlen l1 <= n -> ztake n (l1 ++ l2) = l1 ++ ztake (n - zlen l1) l2.
Proof.
  unfold ztake, zlen; intros H. rewrite firstn_app.
  rewrite firstn_all2 by lia. f_equal. f_equal. lia.
Qed.

Lemma ztake_extend {A} (l : list A) a n : 0 <= a -> 0 <= n -> ztake (a + n) l = ztake a l ++ ztake n (zdrop a l).
Proof.
  intros Ha Hn. rewrite <- (ztake_zdrop_split a (ztake (a + n) l)).
  rewrite ztake_ztake, zdrop_ztake by lia. do 2 f_equal. lia.
Qed.

Lemma nth_ztake {A} i n (l : list A) d : Z.of_nat i < n -> nth i (ztake n l) d = nth i l d.
Proof. intros H. unfold ztake. apply nth_firstn_lt. lia. Qed.

Lemma ztake_app_l {A} n (l1 l2 : list A) : n <= zlen l1 -> ztake n (l1 ++ l2) = ztake n l1.
Proof.
  unfold ztake, zlen; intros H. rewrite firstn_app.
  replace (Z.to_nat n - length l1)%nat with O by lia. cbn. apply app_nil_r.
Qed.

Lemma ztake_app_exact {A} (a x : list A) : ztake (zlen a) (a ++ x) = a.
Proof. rewrite ztake_app_l by lia. apply ztake_all. lia. Qed.

Lemma ztake_app3 {A} m (a b c : list A) : 0 <= m <= zlen c ->
  ztake (zlen a + zlen b + zlen c - m) (a ++ b ++ c) = a ++ b ++ ztake (zlen c - m) c.
Proof.
  intros Hm. pose proof (zlen_nonneg b).
  rewrite !ztake_app_r by lia. do 3 f_equal. lia.
Qed.

Lemma zdrop_app_l {A} n (l1 l2 : list A) : n <= zlen l1 -> zdrop n (l1 ++ l2) = zdrop n l1 ++ l2.
Proof.
  unfold zdrop, zlen; intros H. rewrite skipn_app.
  replace (Z.to_nat n - length l1)%nat with O by lia. reflexivity.
Qed.

Lemma zdrop_app_r {A} n (l1 l2 : list A) : zlen l1 <= n -> zdrop n (l1 ++ l2) = zdrop (n - zlen l1) l2.
Proof.
  unfold zdrop, zlen; intros H. rewrite skipn_app.
  rewrite skipn_all2 by lia. cbn [app]. f_equal. lia.
Qed.

Lemma zdrop_app_exact {A} (a x : list A) : zdrop (zlen a) (a ++ x) = x.
Proof. rewrite zdrop_app_r, Z.sub_diag by lia. apply zdrop_nonpos. lia. Qed.

Lemma zdrop_app_plus {A} (a x : list A) k : 0 <= k -> zdrop (zlen a + k) (a ++ x) = zdrop k x.
Proof. intros Hk. rewrite zdrop_app_r by lia. f_equal. lia. Qed.

Lemma zdrop_stream_app {A} k (r p w : list A) : k <= zlen r -> zdrop k (r ++ p ++ w) = zdrop k (r ++ p) ++ w.
Proof. intros Hk. rewrite app_assoc. apply zdrop_app_l. rewrite zlen_app. pose proof (zlen_nonneg p). lia. Qed.

Lemma zsub_empty {A} a b (l : list A) : b <= a -> zsub a b l = [].
Proof. intros H; unfold zsub. apply ztake_nonpos; lia. Qed.

Lemma zsub_full {A} (l : list A) n : n = zlen l -> zsub 0 n l = l.
Proof.
  intros ->. unfold zsub. rewrite zdrop_nonpos by lia. apply ztake_all. lia.
Qed.

Lemma zsub_split {A} a c b (l : list A) : 0 <= a <= b -> b <= c -> zsub a c l = zsub a b l ++ zsub b c l.
Proof.
  intros H1 H2. unfold zsub.
  replace (zdrop b l) with (zdrop (b - a) (zdrop a l)) by (rewrite zdrop_zdrop by lia; f_equal; lia).
  set (m := zdrop a l).
  rewrite <- (ztake_zdrop_split (b - a) (ztake (c - a) m)).
  f_equal.
  - apply ztake_ztake. lia.
  - rewrite zdrop_ztake by lia. f_equal. lia.
Qed.

(* Prelude.zlen_zsub again; used by no proof *)
Lemma zsub_zsub_len {A} a b (l : list A) : 0 <= a <= b -> b <= zlen l -> zlen (zsub a b l) = b - a.
Proof. intros; apply zlen_zsub; lia. Qed.

Lemma ztake_zsub {A} k a b (l : list A) : 0 <= k <= b - a -> ztake k (zsub a b l) = zsub a (a + k) l.
Proof.
  intros H. unfold zsub. rewrite ztake_ztake by lia. f_equal. lia.
Qed.

Lemma zdrop_zsub {A} k a b (l : list A) : 0 <= k -> 0 <= a -> zdrop k (zsub a b l) = zsub (a + k) b l.
Proof.
  intros Hk Ha. unfold zsub. rewrite zdrop_ztake by lia. rewrite zdrop_zdrop by lia. f_equal. lia.
Qed.

Lemma zsub_ztake {A} a b n (l : list A) : 0 <= a -> b <= n -> zsub a b (ztake n l) = zsub a b l.
Proof.
  intros Ha Hb. destruct (Z_le_gt_dec b a); [rewrite !zsub_empty by lia; reflexivity|].
  unfold zsub. rewrite zdrop_ztake by lia. rewrite ztake_ztake by lia. reflexivity.
Qed.

Lemma zsub_app_l {A} i j (x y : list A) : 0 <= i -> j <= zlen x -> zsub i j (x ++ y) = zsub i j x.
Proof.
  intros Hi Hj. destruct (Z_le_gt_dec j i); [rewrite !zsub_empty by lia; reflexivity|].
  unfold zsub. rewrite zdrop_app_l by lia. rewrite ztake_app_l; [reflexivity|].
  rewrite zlen_zdrop by lia. lia.
Qed.

Lemma zsub_mid {A} n (x y z : list A) : 0 <= n <= zlen y -> zsub (zlen x) (zlen x + n) (x ++ y ++ z) = ztake n y.
Proof.
  intros Hn. unfold zsub. rewrite zdrop_app_exact. replace (zlen x + n - zlen x) with n by lia.
  apply ztake_app_l. lia.
Qed.

Lemma zsub_app3 {A} (a b c : list A) :
  zsub 0 (zlen a) (a ++ b ++ c) = a /\
  zsub (zlen a) (zlen a + zlen b) (a ++ b ++ c) = b /\
  zsub (zlen a + zlen b) (zlen a + zlen b + zlen c) (a ++ b ++ c) = c.
Proof.
  unfold zsub. repeat split.
  - rewrite zdrop_nonpos by lia. replace (zlen a - 0) with (zlen a) by lia. apply ztake_app_exact.
  - rewrite zdrop_app_exact.
    replace (zlen a + zlen b - zlen a) with (zlen b) by lia. apply ztake_app_exact.
  - rewrite <- zlen_app. rewrite app_assoc. rewrite zdrop_app_exact.
    apply ztake_all. rewrite zlen_app. lia.
Qed.

Lemma zwrite_nil {A} a (l : list A) : zwrite a [] l = l.
Proof. unfold zwrite. rewrite zlen_nil, Z.add_0_r. apply ztake_zdrop_split. Qed.

Lemma zsub_zwrite_before {A} a b off (w l : list A) :
  0 <= a -> b <= off -> off + zlen w <= zlen l -> zsub a b (zwrite off w l) = zsub a b l.
Proof.
  intros Ha Hb Hw. pose proof (zlen_nonneg w) as Hw0.
  destruct (Z_le_gt_dec b a) as [Hba|Hba]; [rewrite !zsub_empty by lia; reflexivity|].
  assert (Hoff : zlen (ztake off l) = off) by (apply zlen_ztake; lia).
  unfold zwrite, zsub.
  rewrite zdrop_app_l by lia.
  rewrite ztake_app_l by (rewrite zlen_zdrop; lia).
  rewrite zdrop_ztake by lia. rewrite ztake_ztake by lia. reflexivity.
Qed.

Lemma zsub_zwrite_after {A} a b off (w l : list A) :
  0 <= off -> off + zlen w <= a -> off + zlen w <= zlen l -> zsub a b (zwrite off w l) = zsub a b l.
Proof.
  intros Ho Ha Hw. pose proof (zlen_nonneg w) as Hw0.
  unfold zwrite, zsub. f_equal.
  rewrite zdrop_app_r by (rewrite zlen_ztake; lia).
  rewrite zlen_ztake by lia.
  rewrite zdrop_app_r by lia.
  rewrite zdrop_zdrop by lia. f_equal. lia.
Qed.

(* used by no proof *)
Lemma zsub_zwrite_same {A} off (w l : list A) :
  0 <= off -> off + zlen w <= zlen l -> zsub off (off + zlen w) (zwrite off w l) = w.
Proof.
  intros Ho Hw. pose proof (zlen_nonneg w) as Hw0.
  unfold zwrite, zsub.
  rewrite zdrop_app_r by (rewrite zlen_ztake; lia).
  rewrite zlen_ztake by lia. replace (off - off) with 0 by lia. rewrite zdrop_nonpos by lia.
  replace (off + zlen w - off) with (zlen w) by lia.
  rewrite ztake_app_l by lia. apply ztake_all. lia.
Qed.

Lemma slice_of_ok cap a b : 0 <= a <= b -> b <= cap -> slice_of cap a b = Ok (mkslice a (b - a)).
Proof.
  intros H1 H2. unfold slice_of.
  destruct (Z.leb_spec 0 a); [|lia]. destruct (Z.leb_spec a b); [|lia]. destruct (Z.leb_spec b cap); [|lia].
  reflexivity.
Qed.

Lemma reslice_ok s a b : 0 <= a <= b -> b <= slen s -> reslice s a b = Ok (mkslice (soff s + a) (b - a)).
Proof.
  intros H1 H2. unfold reslice.
  destruct (Z.leb_spec 0 a); [|lia]. destruct (Z.leb_spec a b); [|lia]. destruct (Z.leb_spec b (slen s)); [|lia].
  reflexivity.
Qed.
